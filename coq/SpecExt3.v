(* SpecExt3.v -- strljustify_s, strremovews_s: functional specification and frame (C01, C06) on a terminated string, for every
   memory.  The scans of the C code are bounded by the data only; the model runs them on fuel (ModExt2.v) and the theorems show
   the fuel is never exhausted and every store stays inside dest[0 .. strlen).  The loop lemmas give the memory a loop leaves
   region by region, by address (the string ends at e); only the last step meets the conditionals of ljust_post and removews_post. *)
From Coq Require Import ZArith Lia Bool.
From SC Require Import Base Wp Cfg CombProofs SpecStr ModExt2 SpecExt SpecExt2.
Local Open Scope Z_scope.

Definition cstr (m : mem) (p : Z) (L : nat) : Prop :=
  (forall j, 0 <= j < Z.of_nat L -> m (p + j) <> 0) /\ m (p + Z.of_nat L) = 0.
Lemma cstr_S m p L : cstr m p (S L) -> m p <> 0 /\ cstr m (p + 1) L.
Proof.
  intros [H1 H2]. rewrite Nat2Z.inj_succ in *. split; [specialize (H1 0 ltac:(lia)); now rewrite Z.add_0_r in H1|]. split.
  - intros j Hj. replace (p + 1 + j) with (p + (j + 1)) by lia. apply H1. lia.
  - replace (p + 1 + Z.of_nat L) with (p + Z.succ (Z.of_nat L)) by lia. exact H2.
Qed.
Lemma cstr_at m p L : cstr m p L -> forall x, p <= x < p + Z.of_nat L -> m x <> 0.
Proof. intros [H _] x Hx. replace x with (p + (x - p)) by lia. apply H. lia. Qed.

Lemma term_scan_wp od odmax (k : Z -> prog Z) (Q : Z -> mem -> Prop) e m : forall n p,
  p <= e <= p + Z.of_nat n -> (forall x, p <= x < e -> m x <> 0) -> m e = 0 -> wp (k e) m Q -> wp (term_scan od odmax n p k) m Q.
Proof.
  induction n as [|n IH]; intros p He Hnz Hz HQ; cbn [term_scan wp]; rewrite load1;
    (destruct (Z.eq_dec p e) as [->|Ne]; [rewrite Hz; exact HQ|]); [lia|].
  specialize (Hnz p) as Hp. tests. apply IH; auto; [lia|intros; apply Hnz; lia].
Qed.

(* the character that ends the K blanks may be the terminator *)
Definition blanks (m : mem) (p : Z) (K : nat) : Prop :=
  (forall j, 0 <= j < Z.of_nat K -> is_ws (m (p + j)) = true) /\ is_ws (m (p + Z.of_nat K)) = false.
Lemma blanks_at m p K : blanks m p K -> forall x, p <= x < p + Z.of_nat K -> is_ws (m x) = true.
Proof. intros [H _] x Hx. replace x with (p + (x - p)) by lia. apply H. lia. Qed.
Lemma skip_ws_wp (k : Z -> prog Z) (Q : Z -> mem -> Prop) b m : forall fuel p,
  p <= b < p + Z.of_nat fuel -> (forall x, p <= x < b -> is_ws (m x) = true) -> is_ws (m b) = false -> wp (k b) m Q ->
  wp (skip_ws fuel p k) m Q.
Proof.
  induction fuel as [|fuel IH]; intros p Hb Hws Hnb HQ; [lia|]. cbn [skip_ws wp]. rewrite load1.
  destruct (Z.eq_dec p b) as [->|Ne]; [rewrite Hnb; exact HQ|]. rewrite Hws by lia. apply IH; auto; [lia|intros; apply Hws; lia].
Qed.

Lemma shift_left_wp (k : Z -> Z -> prog Z) (Q : Z -> mem -> Prop) e e' : forall fuel o p m,
  wf_mem m -> o < p <= e -> e' - o = e - p -> e - p < Z.of_nat fuel -> (forall x, p <= x < e -> m x <> 0) -> m e = 0 ->
  (forall m', (forall x, o <= x < e' -> m' x = m (x + (p - o))) ->
              (forall x, p <= x < e -> e' <= x -> m' x = 32) ->
              (forall x, ~ (o <= x < e') -> ~ (p <= x < e) -> m' x = m x) ->
              wp (k e' e) m' Q) ->
  wp (shift_left fuel o p k) m Q.
Proof.
  induction fuel as [|fuel IH]; intros o p m Hwf Hop He Hf Hnz Hz HQ; [lia|]. cbn [shift_left wp]. rewrite load1.
  destruct (Z.eq_dec p e) as [->|Npe].
  - rewrite Hz. cbn [Z.eqb]. replace o with e' by lia. apply HQ; intros; try lia; reflexivity.
  - replace (m p =? 0) with false by (specialize (Hnz p); lia). cbn [wp].
    set (m1 := store (store m 1 o (m p)) 1 p 32).
    assert (Ho : m1 o = m p) by (subst m1; rewrite store_out, store1_in by lia; apply wf_byte, Hwf).
    assert (Hp : m1 p = 32) by apply store1_in.
    assert (Hm1 : forall x, x <> o -> x <> p -> m1 x = m x) by (intros; subst m1; rewrite !store_out by lia; reflexivity).
    apply (IH (o + 1) (p + 1) m1); [apply wf_store, wf_store, Hwf|lia|lia|lia| | |].
    + intros x Hx. rewrite Hm1 by lia. apply Hnz. lia.
    + rewrite Hm1 by lia. exact Hz.
    + intros m' Hmv Hbl Hout. apply HQ.
      * intros x Hx. destruct (Z.eq_dec x o) as [->|].
        -- rewrite Hout, Ho by lia. f_equal. lia.
        -- rewrite Hmv, Hm1 by lia. f_equal. lia.
      * intros x Hx Hx'. destruct (Z.eq_dec x p) as [->|]; [rewrite Hout by lia; exact Hp|apply Hbl; lia].
      * intros x Hx Hx'. rewrite Hout by lia. apply Hm1; lia.
Qed.

Lemma blanks_le m d K L : blanks m d K -> cstr m d L -> (K <= L)%nat.
Proof.
  intros [Hb _] [_ Hz]. destruct (Nat.le_gt_cases K L) as [H|H]; [exact H|]. exfalso.
  specialize (Hb (Z.of_nat L) ltac:(lia)). rewrite Hz in Hb. discriminate Hb.
Qed.

(* what strljustify_s leaves of a string of L characters with K leading blanks (K >= 1) *)
Definition ljust_post (m : mem) (d : Z) (L K : nat) (m' : mem) : Prop :=
  forall x, m' x = if inb d (d + Z.of_nat (L - K)) x then m (x + Z.of_nat K)
                   else if x =? d + Z.of_nat (L - K) then 0
                   else if inb (d + Z.of_nat K) (d + Z.of_nat L) x then 32 else m x.

Theorem strljustify_s_spec c d dmax destbos m L K : wf_mem m -> d <> 0 -> usable (rmax_str c) 1 dmax destbos -> 2 <= dmax ->
  (1 <= L)%nat -> Z.of_nat L <= dmax -> cstr m d L -> blanks m d K ->
  wp (strljustify_s c d dmax destbos) m (fun r m' =>
     r = EOK /\ (K = O -> m' = m) /\ ((1 <= K)%nat -> ljust_post m d L K m') /\
     (* frame: in particular nothing at or behind dest[dmax] changes *)
     (forall x, ~ (d <= x < d + Z.of_nat L) -> m' x = m x)).
Proof.
  intros Hwf Hd Hu Hm HL HLd Hs Hb. pose proof (blanks_le m d K L Hb Hs) as HKL. pose proof (cstr_at m d L Hs) as Hnz.
  unfold strljustify_s. rewrite chk_dest_plain_ok by assumption. specialize (Hnz d) as Hd0.
  tests. cbn [wp]. rewrite load1. tests.
  apply (term_scan_wp d dmax _ _ (d + Z.of_nat L)); [lia|exact Hnz|apply Hs|].
  apply (skip_ws_wp _ _ (d + Z.of_nat K)); [lia|apply blanks_at, Hb|apply Hb|].
  destruct K as [|K].
  - cbn [Z.of_nat]. rewrite Z.add_0_r, Z.eqb_refl. cbn [wp]. split; [reflexivity|]. split; [reflexivity|]. split; [lia|]. reflexivity.
  - tests. apply (shift_left_wp _ _ (d + Z.of_nat L) (d + Z.of_nat (L - S K))); [exact Hwf|lia|lia|lia|intros x Hx; apply Hnz; lia|apply Hs|].
    intros m1 Hmv Hbl Hout. cbn [wp].
    split; [reflexivity|]. split; [discriminate|]. split.
    + intros _ x. destruct (inbP d (d + Z.of_nat (L - S K)) x); [rewrite store_out, Hmv by lia; f_equal; lia|].
      destruct (Z.eqb_spec x (d + Z.of_nat (L - S K))) as [->|]; [apply store1_in|]. rewrite store_out by lia.
      destruct (inbP (d + Z.of_nat (S K)) (d + Z.of_nat L) x); [apply Hbl|apply Hout]; lia.
    + intros x Hx. rewrite store_out by lia. apply Hout; lia.
Qed.

Lemma strip_back_wp (Q : Z -> mem -> Prop) lo : forall n p m,
  p - Z.of_nat n <= lo <= p -> (forall x, lo < x <= p -> is_ws (m x) = true) ->
  (lo = p - Z.of_nat n \/ is_ws (m lo) = false) ->
  (forall m', (forall x, lo < x <= p -> m' x = 0) -> (forall x, ~ (lo < x <= p) -> m' x = m x) -> Q EOK m') ->
  wp (strip_back n p) m Q.
Proof.
  induction n as [|n IH]; intros p m Hlo Hws Hend HQ; cbn [strip_back wp]; [apply HQ; intros; try lia; reflexivity|].
  rewrite load1. destruct (Z.eq_dec lo p) as [->|Nlo].
  - destruct Hend as [He|He]; [lia|]. rewrite He. cbn [wp]. apply HQ; intros; try lia; reflexivity.
  - rewrite (Hws p) by lia. cbn [wp]. apply IH; [lia| | |].
    + intros x Hx. rewrite store_out by lia. apply Hws. lia.
    + destruct Hend as [He|He]; [left; lia|right]. rewrite store_out by lia. exact He.
    + intros m' Hin Hout. apply HQ.
      * intros x Hx. destruct (Z.eq_dec x p) as [->|]; [rewrite Hout by lia; apply store1_in|apply Hin; lia].
      * intros x Hx. rewrite Hout by lia. apply store_out. lia.
Qed.

(* the characters between the K leading and the T trailing blanks moved to the front, zeros behind them up to the old
   terminator; for a string of blanks only (K = L, T = 0) everything is zero *)
Definition removews_post (m : mem) (d : Z) (L K T : nat) (m' : mem) : Prop :=
  forall x, m' x = if inb d (d + Z.of_nat (L - K - T)) x then m (x + Z.of_nat K)
                   else if inb d (d + Z.of_nat L) x then 0 else m x.

(* T trailing blanks in front of the terminator, preceded by a non-blank (when the string is not blank throughout) *)
Definition trailing (m : mem) (d : Z) (L K T : nat) : Prop :=
  (K = L /\ T = O) \/ ((K + T < L)%nat /\ (forall j, 0 <= j < Z.of_nat T -> is_ws (m (d + Z.of_nat L - 1 - j)) = true) /\
                       is_ws (m (d + Z.of_nat L - 1 - Z.of_nat T)) = false).

(* the strip that ends strremovews_s, whichever way it was reached: by then the string has moved down by K (K = 0, or K = L
   and nothing to move, included) and the places it left hold blanks; the strip clears those and the T that moved along *)
Lemma strip_moved m m2 d L K T : trailing m d L K T ->
  (forall x, d <= x < d + Z.of_nat (L - K) -> m2 x = m (x + Z.of_nat K)) ->
  (forall x, d + Z.of_nat (L - K) <= x < d + Z.of_nat L -> is_ws (m2 x) = true) ->
  (forall x, ~ (d <= x < d + Z.of_nat L) -> m2 x = m x) ->
  wp (strip_back L (d + Z.of_nat L - 1)) m2 (fun r m' => r = EOK /\ removews_post m d L K T m').
Proof.
  intros HT Hmv Hbl Hout. apply (strip_back_wp _ (d + Z.of_nat (L - K - T) - 1)).
  - lia.
  - intros x Hx. destruct (Z_lt_le_dec x (d + Z.of_nat (L - K))) as [Hlt|Hge]; [|apply Hbl; lia].
    destruct HT as [[-> ->]|(HKT & Htr & _)]; [lia|]. rewrite Hmv by lia.
    replace (x + Z.of_nat K) with (d + Z.of_nat L - 1 - (d + Z.of_nat L - 1 - x - Z.of_nat K)) by lia. apply Htr. lia.
  - destruct HT as [[-> ->]|(HKT & _ & Hnb)]; [left; lia|right]. rewrite Hmv by lia.
    replace (d + Z.of_nat (L - K - T) - 1 + Z.of_nat K) with (d + Z.of_nat L - 1 - Z.of_nat T) by lia. exact Hnb.
  - intros m' Hz Hkeep. split; [reflexivity|]. intros x.
    destruct (inbP d (d + Z.of_nat (L - K - T)) x); [rewrite Hkeep, Hmv by lia; reflexivity|].
    destruct (inbP d (d + Z.of_nat L) x); [apply Hz; lia|]. rewrite Hkeep by lia. apply Hout. lia.
Qed.

Theorem strremovews_s_spec c d dmax destbos m L K T : wf_mem m -> d <> 0 -> usable (rmax_str c) 1 dmax destbos -> 2 <= dmax ->
  (1 <= L)%nat -> Z.of_nat L <= dmax -> cstr m d L -> blanks m d K -> trailing m d L K T ->
  wp (strremovews_s c d dmax destbos) m (fun r m' => r = EOK /\ removews_post m d L K T m').
Proof.
  intros Hwf Hd Hu Hm HL HLd Hs Hb HT. pose proof (blanks_le m d K L Hb Hs) as HKL.
  pose proof (cstr_at m d L Hs) as Hnz. pose proof (blanks_at m d K Hb) as Hbk. destruct Hs as [_ Hz].
  unfold strremovews_s. rewrite chk_dest_plain_ok by assumption. cbn [wp]. rewrite load1.
  replace ((m d =? 0) || (dmax <=? 1)) with false by (specialize (Hnz d); lia).
  apply (term_scan_wp d dmax _ _ (d + Z.of_nat L)); [lia|exact Hnz|exact Hz|].
  apply (skip_ws_wp _ _ (d + Z.of_nat K)); [lia|exact Hbk|apply Hb|].
  replace (Z.to_nat (d + Z.of_nat L - d)) with L by lia. apply wp_bind.
  destruct (Nat.eq_dec K L) as [->|NKL]; [|destruct K as [|K]].
  - (* blanks only: nothing is moved *)
    tests. cbn [wp]. rewrite load1, Hz. cbn [Z.eqb wp].
    apply strip_moved; auto; [intros; lia|intros; apply Hbk; lia].
  - (* no leading blanks: nothing is moved *)
    cbn [Z.of_nat]. rewrite Z.add_0_r, Z.eqb_refl. cbn [wp]. apply strip_moved; auto; [intros; f_equal; lia|intros; lia].
  - tests. cbn [wp]. rewrite load1.
    replace (m (d + Z.of_nat (S K)) =? 0) with false by (specialize (Hnz (d + Z.of_nat (S K))); lia). apply wp_bind.
    apply (shift_left_wp _ _ (d + Z.of_nat L) (d + Z.of_nat (L - S K))); [exact Hwf|lia|lia|lia|intros x Hx; apply Hnz; lia|exact Hz|].
    intros m1 Hmv Hbl Hout. cbn [wp].
    apply strip_moved; auto.
    + intros x Hx. rewrite store_out, Hmv by lia. f_equal. lia.
    + (* behind the moved string: the blanks written by the shift, in front of them leading blanks never overwritten *)
      intros x Hx. rewrite store_out by lia. destruct (Z_lt_le_dec x (d + Z.of_nat (S K))); [|rewrite Hbl by lia; reflexivity].
      rewrite Hout by lia. apply Hbk. lia.
    + intros x Hx. destruct (Z.eq_dec x (d + Z.of_nat L)) as [->|]; [rewrite store1_in, Hz; reflexivity|].
      rewrite store_out by lia. apply Hout; lia.
Qed.
