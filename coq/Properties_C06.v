(* Properties_C06.v -- C06: success means the exact, complete result. *)
From Coq Require Import List ZArith Lia Bool.
From SC Require Import Base Wp Cfg CombProofs ModStr ModMem ModExt ProofsMem ProofsExt SpecStr SpecMem SpecExt SpecExt2 ModExt2 SpecExt3 PropStr FnProps SpecExt4.
From SC.Gen Require Import Consts.
Import ListNotations.
Local Open Scope Z_scope.

(* link from the wp statements below to executions, whatever the allocation-failure oracle *)
Theorem C06_wp_sound : forall (A : Type) (fail : nat -> bool) (p : prog A) st Q,
  wp p (wm st) Q -> let '(a, st') := run fail p st in Q a (wm st').
Proof. exact (@wp_run). Qed.
Print Assumptions C06_wp_sound.

Theorem C06_strcpy_s : forall (c : cfg) (d dmax s destbos : Z) (m : mem) (L : Z), pre_strcpy_s c d dmax s destbos m L ->
  wp (strcpy_s c d dmax s destbos) m (fun r m' => (r = EOK -> exact_result 1 m m' d dmax s 0 L) /\ (dmax <= L -> r <> EOK)).
Proof. intros * H. apply (wpr_post (strcpy_s_spec H)). intros r m'. apply outcome_C06. Qed.
Print Assumptions C06_strcpy_s.
Theorem C06_wcscpy_s : forall (c : cfg) (d dmax s destbos : Z) (m : mem) (L g : Z), pre_wcscpy_s c d dmax s destbos m L g ->
  wp (wcscpy_s c d dmax s destbos) m (fun r m' => (r = EOK -> exact_result (wchar_w c) m m' d dmax s 0 L) /\ (dmax <= L -> r <> EOK)).
Proof. intros * H. apply (wpr_post (wcscpy_s_spec H)). intros r m'. apply outcome_C06. Qed.
Print Assumptions C06_wcscpy_s.
Theorem C06_strncpy_s : forall (c : cfg) (d dmax s slen destbos srcbos : Z) (m : mem) (t : Z), pre_strncpy_s c d dmax s slen destbos srcbos m t ->
  wp (strncpy_s c d dmax s slen destbos srcbos) m (fun r m' => (r = EOK -> exact_result 1 m m' d dmax s 0 t) /\ (dmax <= t -> r <> EOK)).
Proof. intros * H. apply (wpr_post (strncpy_s_spec H)). intros r m'. apply outcome_C06. Qed.
Print Assumptions C06_strncpy_s.
Theorem C06_strcat_s : forall (c : cfg) (d dmax s destbos : Z) (m : mem) (P L : Z), pre_strcat_s c d dmax s destbos m P L ->
  wp (strcat_s c d dmax s destbos) m (fun r m' => (r = EOK -> exact_result 1 m m' d dmax s P L) /\ (dmax - P <= L -> r <> EOK)).
Proof. intros * H. apply (wpr_post (strcat_s_spec H)). intros r m'. apply outcome_C06. Qed.
Print Assumptions C06_strcat_s.
Theorem C06_strncat_s : forall (c : cfg) (d dmax s slen destbos srcbos : Z) (m : mem) (P t : Z), pre_strncat_s c d dmax s slen destbos srcbos m P t ->
  wp (strncat_s c d dmax s slen destbos srcbos) m (fun r m' => (r = EOK -> exact_result 1 m m' d dmax s P t) /\ (dmax - P <= t -> r <> EOK)).
Proof. intros * H. apply (wpr_post (strncat_s_spec H)). intros r m'. apply outcome_C06. Qed.
Print Assumptions C06_strncat_s.

(* memory family: success = exactly the source bytes moved, nothing else changed (moved) *)
Theorem C06_memcpy_s : forall c d dmax s slen destbos srcbos m, d <> 0 -> s <> 0 -> 1 <= dmax -> 1 <= slen -> ((destbos = BOS_UNKNOWN /\ dmax <= rmax_mem c) \/ (destbos <> BOS_UNKNOWN /\ dmax <= destbos)) -> (srcbos = BOS_UNKNOWN \/ slen * 1 <= srcbos) -> wp (memcpy_s c d dmax s slen destbos srcbos) m (mem_copy_post c 1 true d (eff_dmax false dmax destbos) s slen m).
Proof. intros. apply mem_copy_gen_spec; auto; lia. Qed.
Print Assumptions C06_memcpy_s.
Theorem C06_memmove_s : forall c d dmax s slen destbos srcbos m, d <> 0 -> s <> 0 -> 1 <= dmax -> 1 <= slen -> ((destbos = BOS_UNKNOWN /\ dmax <= rmax_mem c) \/ (destbos <> BOS_UNKNOWN /\ dmax <= destbos)) -> (srcbos = BOS_UNKNOWN \/ slen * 1 <= srcbos) -> wp (memmove_s c d dmax s slen destbos srcbos) m (mem_copy_post c 1 false d (eff_dmax false dmax destbos) s slen m).
Proof. intros. apply mem_copy_gen_spec; auto; lia. Qed.
Print Assumptions C06_memmove_s.
Theorem C06_memcpy16_s : forall c d dmax s slen destbos srcbos m, d <> 0 -> s <> 0 -> 1 <= dmax -> 1 <= slen -> ((destbos = BOS_UNKNOWN /\ dmax <= rmax_mem c) \/ (destbos <> BOS_UNKNOWN /\ dmax <= destbos)) -> (srcbos = BOS_UNKNOWN \/ slen * 2 <= srcbos) -> wp (memcpy16_s c d dmax s slen destbos srcbos) m (mem_copy_post c 2 true d (eff_dmax true dmax destbos) s slen m).
Proof. intros. apply mem_copy_gen_spec; auto; lia. Qed.
Print Assumptions C06_memcpy16_s.
Theorem C06_memmove16_s : forall c d dmax s slen destbos srcbos m, d <> 0 -> s <> 0 -> 1 <= dmax -> 1 <= slen -> ((destbos = BOS_UNKNOWN /\ dmax <= rmax_mem c) \/ (destbos <> BOS_UNKNOWN /\ dmax <= destbos)) -> (srcbos = BOS_UNKNOWN \/ slen * 2 <= srcbos) -> wp (memmove16_s c d dmax s slen destbos srcbos) m (mem_copy_post c 2 false d (eff_dmax true dmax destbos) s slen m).
Proof. intros. apply mem_copy_gen_spec; auto; lia. Qed.
Print Assumptions C06_memmove16_s.
Theorem C06_memcpy32_s : forall c d dmax s slen destbos srcbos m, d <> 0 -> s <> 0 -> 1 <= dmax -> 1 <= slen -> ((destbos = BOS_UNKNOWN /\ dmax <= rmax_mem c) \/ (destbos <> BOS_UNKNOWN /\ dmax <= destbos)) -> (srcbos = BOS_UNKNOWN \/ slen * 4 <= srcbos) -> wp (memcpy32_s c d dmax s slen destbos srcbos) m (mem_copy_post c 4 true d (eff_dmax true dmax destbos) s slen m).
Proof. intros. apply mem_copy_gen_spec; auto; lia. Qed.
Print Assumptions C06_memcpy32_s.
Theorem C06_memmove32_s : forall c d dmax s slen destbos srcbos m, d <> 0 -> s <> 0 -> 1 <= dmax -> 1 <= slen -> ((destbos = BOS_UNKNOWN /\ dmax <= rmax_mem c) \/ (destbos <> BOS_UNKNOWN /\ dmax <= destbos)) -> (srcbos = BOS_UNKNOWN \/ slen * 4 <= srcbos) -> wp (memmove32_s c d dmax s slen destbos srcbos) m (mem_copy_post c 4 false d (eff_dmax true dmax destbos) s slen m).
Proof. intros. apply mem_copy_gen_spec; auto; lia. Qed.
Print Assumptions C06_memmove32_s.
Theorem C06_memset_s : forall c d dmax v n m, d <> 0 -> 1 <= n <= dmax -> dmax <= rmax_mem c -> 0 <= v <= 255 -> wp (memset_s c d dmax v n BOS_UNKNOWN) m (fun r m' => r = EOK /\ forall a, m' a = if in_range d n a then v else m a).
Proof. intros * Hd [Hn Hn'] Hr Hv. apply memset_s_spec; auto. Qed.
Print Assumptions C06_memset_s.
Theorem C06_memzero_s : forall c d len destbos m, d <> 0 -> 1 <= len * 1 -> ((destbos = BOS_UNKNOWN /\ len * 1 <= rmax_mem c) \/ (destbos <> BOS_UNKNOWN /\ len * 1 <= destbos)) -> wp (memzero_s c d len destbos) m (fun r m' => r = EOK /\ forall a, m' a = if in_range d (len * 1) a then 0 else m a).
Proof. intros c d len destbos m. exact (memzerow_s_spec c 1 d len destbos m). Qed.
Print Assumptions C06_memzero_s.
Theorem C06_memzero16_s : forall c d len destbos m, d <> 0 -> 1 <= len * 2 -> ((destbos = BOS_UNKNOWN /\ len * 2 <= rmax_mem c) \/ (destbos <> BOS_UNKNOWN /\ len * 2 <= destbos)) -> wp (memzero16_s c d len destbos) m (fun r m' => r = EOK /\ forall a, m' a = if in_range d (len * 2) a then 0 else m a).
Proof. intros c d len destbos m. exact (memzerow_s_spec c 2 d len destbos m). Qed.
Print Assumptions C06_memzero16_s.
Theorem C06_memzero32_s : forall c d len destbos m, d <> 0 -> 1 <= len * 4 -> ((destbos = BOS_UNKNOWN /\ len * 4 <= rmax_mem c) \/ (destbos <> BOS_UNKNOWN /\ len * 4 <= destbos)) -> wp (memzero32_s c d len destbos) m (fun r m' => r = EOK /\ forall a, m' a = if in_range d (len * 4) a then 0 else m a).
Proof. intros c d len destbos m. exact (memzerow_s_spec c 4 d len destbos m). Qed.
Print Assumptions C06_memzero32_s.
Theorem C06_stpcpy_s : forall c d dmax s errp m L, wf_mem m -> d <> 0 -> s <> 0 -> errp <> 0 -> 1 <= dmax <= rmax_str c -> 0 <= L < dmax -> (forall i, 0 <= i < L -> m (s + i) <> 0) -> m (s + L) = 0 -> (s + L < d \/ d + dmax <= s) -> (errp + 4 <= d \/ d + dmax <= errp) -> wp (stpcpy_s c d dmax s errp BOS_UNKNOWN BOS_UNKNOWN) m (fun r m' => r = d + L /\ load m' 4 errp = 0 /\ (forall i, 0 <= i <= L -> m' (d + i) = m (s + i)) /\ (null_slack c = true -> forall a, d + L < a < d + dmax -> m' a = 0) /\ (forall a, ~ (d <= a < d + dmax) -> ~ (errp <= a < errp + 4) -> m' a = m a)).
Proof.
  intros c d dmax s errp m L Hwf Hd Hs He Hm HL Hnz Hz Hdis Herr.
  (* behind dest the outcome is silent in the null-slack build: there the write footprint (C01) is the frame *)
  apply (wp_frame (stpP d dmax errp)); [apply stpcpy_s_writes; lia|].
  apply (stpcpy_s_spec c d dmax s errp BOS_UNKNOWN m L); [|exact He|].
  { split; [exact Hwf|]. repeat split; auto using usable_unknown; try lia; [intros j Hj|]; rewrite elem1; auto. }
  intros r m1 [A _] Hfr. destruct A as (-> & (_ & Hcp & Hz' & _) & Hsl); try lia.
  split; [reflexivity|]. split; [apply load_store_same; lia|].
  split; [|split].
  - intros i Hi. rewrite store_out by lia. destruct (Z.eq_dec i L) as [->|Ni].
    + rewrite Hz, <- Hz', load1. f_equal. lia.
    + rewrite <- (elem1 m s i), <- Hcp, load1 by lia. f_equal. lia.
  - intros N a Ha. rewrite store_out by lia. unfold slack_clean in Hsl. rewrite N in Hsl. apply Hsl. lia.
  - intros a Ha Ha'. apply Hfr. unfold stpP, ext. lia.
Qed.
Print Assumptions C06_stpcpy_s.
Theorem C06_strtolowercase_s : forall c d dmax m, d <> 0 -> 1 <= dmax <= rmax_str c -> wp (strtolowercase_s c d dmax BOS_UNKNOWN) m (fun r m' => r = EOK /\ exists t, 0 <= t <= dmax /\ (forall i, 0 <= i < t -> m (d + i) <> 0) /\ (t < dmax -> m (d + t) = 0) /\ forall a, m' a = if (d <=? a) && (a <? d + t) then conv 65 90 32 (m a) else m a).
Proof. intros. apply (case_conv_spec c 65 90 32); auto using usable_unknown. Qed.
Print Assumptions C06_strtolowercase_s.
Theorem C06_strtouppercase_s : forall c d dmax m, d <> 0 -> 1 <= dmax <= rmax_str c -> wp (strtouppercase_s c d dmax BOS_UNKNOWN) m (fun r m' => r = EOK /\ exists t, 0 <= t <= dmax /\ (forall i, 0 <= i < t -> m (d + i) <> 0) /\ (t < dmax -> m (d + t) = 0) /\ forall a, m' a = if (d <=? a) && (a <? d + t) then conv 97 122 (-32) (m a) else m a).
Proof. intros. apply (case_conv_spec c 97 122 (-32)); auto using usable_unknown. Qed.
Print Assumptions C06_strtouppercase_s.
Theorem C06_strset_s : forall c d dmax value m, d <> 0 -> 1 <= dmax <= rmax_str c -> 0 <= value <= 255 ->
  wp (strset_s c d dmax value BOS_UNKNOWN) m (set_post c d dmax dmax value m).
Proof. intros. apply strset_s_spec; auto using usable_unknown. Qed.
Print Assumptions C06_strset_s.

(* wcsset_s / wcsnset_s: as strset_s / strnset_s, by elements of wchar_w c bytes (wset_post, wnset_post) *)
Theorem C06_wcsset_s : forall c d dmax value m, wf_cfg c -> d <> 0 -> 1 <= dmax <= rmax_wstr c -> wc_signed value <= UNICODE_MAX ->
  wp (wcsset_s c d dmax value BOS_UNKNOWN) m (wset_post c (wchar_w c) d dmax (value mod 4294967296) m).
Proof. exact wcsset_s_spec. Qed.
Print Assumptions C06_wcsset_s.

Theorem C06_wcsnset_s : forall c d dmax value n m, wf_cfg c -> d <> 0 -> 1 <= dmax <= rmax_wstr c -> wc_signed value <= UNICODE_MAX -> 0 <= n <= dmax ->
  wp (wcsnset_s c d dmax value n BOS_UNKNOWN) m (wnset_post c (wchar_w c) d dmax n (value mod 4294967296) m).
Proof. exact wcsnset_s_spec. Qed.
Print Assumptions C06_wcsnset_s.
Theorem C06_strnset_s : forall c d dmax value n m, d <> 0 -> 1 <= dmax <= rmax_str c -> 0 <= value <= 255 -> 0 <= n <= dmax ->
  wp (strnset_s c d dmax value n BOS_UNKNOWN) m (set_post c d dmax n value m).
Proof. intros. apply strnset_s_spec; auto using usable_unknown. Qed.
Print Assumptions C06_strnset_s.

(* strljustify_s / strremovews_s on a terminated string of L >= 1 characters with K leading (and T trailing) blanks: the exact
   result, and nothing outside dest[0 .. L) changes (the scans bounded only by the data never run out of fuel) *)
Theorem C06_strljustify_s : forall c d dmax m L K, wf_mem m -> d <> 0 -> 2 <= dmax <= rmax_str c ->
  (1 <= L)%nat -> Z.of_nat L <= dmax -> cstr m d L -> blanks m d K ->
  wp (strljustify_s c d dmax BOS_UNKNOWN) m (fun r m' =>
     r = EOK /\ (K = O -> m' = m) /\ ((1 <= K)%nat -> ljust_post m d L K m') /\
     (forall x, ~ (d <= x < d + Z.of_nat L) -> m' x = m x)).
Proof. intros c d dmax m L K Hwf Hd Hm. apply strljustify_s_spec; [exact Hwf|exact Hd|apply usable_unknown; lia|lia]. Qed.
Print Assumptions C06_strljustify_s.
Theorem C06_strremovews_s : forall c d dmax m L K T, wf_mem m -> d <> 0 -> 2 <= dmax <= rmax_str c ->
  (1 <= L)%nat -> Z.of_nat L <= dmax -> cstr m d L -> blanks m d K ->
  ((K = L /\ T = O) \/ ((K + T < L)%nat /\ (forall j, 0 <= j < Z.of_nat T -> is_ws (m (d + Z.of_nat L - 1 - j)) = true) /\
                        is_ws (m (d + Z.of_nat L - 1 - Z.of_nat T)) = false)) ->
  wp (strremovews_s c d dmax BOS_UNKNOWN) m (fun r m' => r = EOK /\ removews_post m d L K T m').
Proof. intros c d dmax m L K T Hwf Hd Hm. apply strremovews_s_spec; [exact Hwf|exact Hd|apply usable_unknown; lia|lia]. Qed.
Print Assumptions C06_strremovews_s.
(* in particular the bytes in front of dest are never touched, even for a string of blanks only (the repaired defect) *)
Theorem C06_strremovews_s_frame : forall m d L K T m', removews_post m d L K T m' -> forall x, ~ (d <= x < d + Z.of_nat L) -> m' x = m x.
Proof.
  intros m d L K T m' H x Hx. rewrite H. destruct (inbP d (d + Z.of_nat (L - K - T)) x); [lia|].
  destruct (inbP d (d + Z.of_nat L) x); [lia|reflexivity].
Qed.
Print Assumptions C06_strremovews_s_frame.
Example C06_strremovews_example :
  let m := fun a => if a =? 1000 then 32 else if a =? 1001 then 97 else if a =? 1002 then 32 else if a =? 1003 then 98 else if a =? 1004 then 9 else if a =? 999 then 32 else 0 in
  let '(r, m', _) := exec (strremovews_s cfg_default 1000 8 BOS_UNKNOWN) m in
  r = EOK /\ map m' [999; 1000; 1001; 1002; 1003; 1004; 1005] = [32; 97; 32; 98; 0; 0; 0].
Proof. vm_compute. split; reflexivity. Qed.
Theorem C06_cfg_repo_wf : wf_cfg cfg_repo.
Proof. exact wf_cfg_repo. Qed.
Print Assumptions C06_cfg_repo_wf.
