(* CombProofs.v -- the syntactic predicates ([writes_in], [reads_in], [no_handler], [rets], [hspec] of Base.v, [plain] of
   Interleave.v) on the combinators of Comb.v, and the means by which every later file proves them of its own models:
   the tactic [walk] with its hint database of the same name, and the side-condition closer [rng]. *)
From Coq Require Import List ZArith Lia Bool.
From SC Require Import Base Cfg Comb Interleave.
Import ListNotations.
Local Open Scope Z_scope.
Local Open Scope prog_scope.

Definition ext (d n : Z) : Z -> Prop := fun a => d <= a < d + n.
Definition nowhere : Z -> Prop := fun _ => False.

Lemma mul_ge_self w n : 0 < w -> 1 <= n -> w <= n * w.
Proof. intros. nia. Qed.

(* evaluates every integer comparison in the goal that the hypotheses decide (used to run the
   entry checks of a model on arguments known to be valid) *)
Ltac tests := repeat match goal with
  | |- context [?a =? ?b] => first [rewrite (proj2 (Z.eqb_eq a b)) by lia | rewrite (proj2 (Z.eqb_neq a b)) by lia]
  | |- context [?a <? ?b] => first [rewrite (proj2 (Z.ltb_lt a b)) by lia | rewrite (proj2 (Z.ltb_ge a b)) by lia]
  | |- context [?a <=? ?b] => first [rewrite (proj2 (Z.leb_le a b)) by lia | rewrite (proj2 (Z.leb_gt a b)) by lia]
  end.

Lemma hspec_no_handler {A} (post : list (hkind * Z) -> A -> Prop) acc (p : prog A) :
  no_handler p -> (forall a, post acc a) -> hspec post acc p.
Proof. induction p; cbn; intuition auto. Qed.

Lemma hspec_bind_noh {A B} (post : list (hkind * Z) -> B -> Prop) acc (p : prog A) (f : A -> prog B) :
  no_handler p -> (forall a, hspec post acc (f a)) -> hspec post acc (bind p f).
Proof. intros Hn Hf. apply hspec_bind, hspec_no_handler; auto. Qed.

(* Walking a program text.
   The lemmas below and in the Proofs*.v files say that a syntactic predicate X ([writes_in P], [reads_in R], [plain],
   [no_handler], [rets Q], [hspec post acc]) holds of a program, and it holds because X holds at every node of the
   text.  [walk] does the part of that argument that is the same everywhere: it repeats one step until none applies.
   The step splits a conjunction, introduces a [forall] (names are generated: a script that needs a name introduces
   first), and at a goal [X p] goes by the head of p:
     a constructor     one step of X: [forall v] at Load and Alloc, a range condition at Store, Fill, Move, the
                       postcondition at Ret;
     if b, (if b ..) x case split on the first test b is built from (through negb, &&, ||); a comparison on Z is split
                       by Z.eqb_spec / ltb_spec / leb_spec, so that its meaning stays as a hypothesis, and a branch
                       whose hypotheses contradict each other is closed by lia at once;
     match x           destruct x;
     anything else     [auto with walk], which also applies the induction hypothesis of the loop lemma being proved;
                       failing that, at a bind, the bind lemma of X for [writes_in], [reads_in], [plain], [hspec] (for
                       hspec, a first part that reports nothing is passed over: hspec_bind_noh); failing that, a
                       combinator named by [Hint Unfold .. : walk] is unfolded; failing that, a recursive combinator
                       whose decreasing argument is a constructor is unfolded one step (inside its own induction).
   [no_handler] and [rets] have no bind step: they come up as premises of hspec_bind_noh and writes_in_bind_rets and in
   their own loop lemmas, where constructors, tests and [auto with walk] suffice.
   Unfolding reduces a [let]: a body shared by several branches is walked in each of them.
   The hint database [walk] holds: the lemma of every combinator that has something to say beyond its text -- a loop
   states its invariant there, in the form "for any P, [range_in P a n] -> X (loop ..)", so that no weakening is needed at a use --; the
   closers of side conditions: [rng] for [range_in], [lia] for orders and equations, [discriminate] for "an error
   code is not 0"; and, as [Hint Unfold], the combinators without recursion whose text says all there is (entry
   checks, failing exits, clearing helpers).  A lemma with a premise about a continuation that has to be walked is
   entered as [Hint Extern .. => (apply lemma; walk)]; [Hint Resolve] does for find_end_*, whose continuation is one
   call of copy_loop, closed by auto with that loop's lemma.
   What walk does not do: it never splits on a test that stands inside an argument of a call or that chooses between
   two functions (the script does that destruct itself, before walk), and it proves no invariant.  When a hypothesis
   is missing it stops at the leaf that needs it, with the tests on the way there as hypotheses. *)
Create HintDb walk discriminated.
Create HintDb rng discriminated.
Global Hint Unfold range_in ext nowhere : rng.

(* a range or inclusion condition, the sets named in the unfold database [rng] unfolded (a definition of a set adds
   itself there): from a hypothesis on the set when it is a variable, else by arithmetic *)
Ltac rng := autounfold with rng; intros;
  first [ match goal with
          | H : range_in ?P _ _ |- ?P _ => apply H; lia
          | H : _ -> range_in ?P _ _ |- ?P _ => apply H; lia
          end
        | lia
        | Z.div_mod_to_equations; nia ].

Ltac case_test b :=
  lazymatch b with
  | ?x =? ?y => destruct (Z.eqb_spec x y)
  | ?x <? ?y => destruct (Z.ltb_spec x y)
  | ?x <=? ?y => destruct (Z.leb_spec x y)
  | negb ?b' => case_test b'
  | ?b1 && _ => case_test b1
  | ?b1 || _ => case_test b1
  | _ => destruct b
  end.

Ltac head t := lazymatch t with ?f _ => head f | _ => t end.
Ltac walk_step :=
  lazymatch goal with
  | |- True => exact I
  | |- _ /\ _ => split
  | |- forall _, _ => intro
  | |- ?X ?p =>
      lazymatch p with
      | (if ?b then _ else _) => case_test b; try lia; cbn [andb orb negb]
      | (if ?b then _ else _) _ => case_test b; try lia; cbn [andb orb negb]
      | (match ?x with _ => _ end) => destruct x
      | _ =>
          let h := head p in
          first
          [ progress cbn [writes_in reads_in no_handler plain rets hspec]
          | solve [auto with walk]
          | lazymatch goal with
            | |- writes_in _ (bind _ _) => apply writes_in_bind
            | |- reads_in _ (bind _ _) => apply reads_in_bind
            | |- plain (bind _ _) => apply plain_bind
            | |- hspec _ _ (bind _ _) => first [ apply hspec_bind_noh; [solve [auto with walk]|] | apply hspec_bind ]
            end
          | (* h is named by a Hint Unfold in walk *)
            assert_succeeds (assert (h = h) by (progress autounfold with walk; reflexivity)); unfold h
          | progress cbn [h] ]
      end
  end.
Ltac walk := repeat walk_step.

Global Hint Extern 1 (range_in _ _ _) => solve [rng] : walk.
Global Hint Extern 1 (_ <= _) => lia : walk.
Global Hint Extern 1 (_ < _) => lia : walk.
Global Hint Extern 1 (@eq Z _ _) => lia : walk.
Global Hint Extern 1 (_ <> 0) => discriminate : walk.   (* an error code *)
Global Hint Extern 1 (le _ _) => lia : walk.
Global Hint Unfold fail_str fail_mem handle_mem_error handle_error zero_slack strnlen_s_prog bos_overflow
  chk_dest_str chk_dest_wstr : walk.

Lemma zero_loop_writes P w n : 0 < w -> forall d, range_in P d (Z.of_nat n * w) -> writes_in P (zero_loop w n d).
Proof. intros Hw. induction n as [|n IH]; walk. Qed.
Global Hint Resolve zero_loop_writes : walk.

Lemma zero_slack_writes P c w n d : 0 < w -> range_in P d (Z.of_nat n * w) -> writes_in P (zero_slack c w d n).
Proof. intros Hw HP. unfold zero_slack. walk. Qed.
Global Hint Resolve zero_slack_writes : walk.

(* dmax may be 0 or less (a length just measured): then the clear is empty in the slack build, one element otherwise *)
Lemma handle_error_writes P c w d dmax code :
  0 < w -> range_in P d (Z.max dmax 1 * w) -> writes_in P (handle_error c w d dmax code).
Proof. intros Hw HP. unfold handle_error. walk; intros x Hx; apply HP; nia. Qed.
Global Hint Resolve handle_error_writes : walk.

Lemma nlen_loop_writes P g w n : forall p cnt bos, writes_in P (nlen_loop g w n p cnt bos).
Proof. induction n as [|n IH]; walk. Qed.
Lemma nlen_loop_rets (Q : Z -> Prop) g w n : forall p cnt bos,
  (forall r, cnt <= r <= cnt + Z.of_nat n -> Q r) -> rets Q (nlen_loop g w n p cnt bos).
Proof. induction n as [|n IH]; intros p cnt bos HQ; walk; try apply IH; intros; apply HQ; lia. Qed.
Global Hint Resolve nlen_loop_writes : walk.

Lemma strnlen_s_prog_rets c str smax bos : rets (fun r => 0 <= r <= Z.max smax 0) (strnlen_s_prog c str smax bos).
Proof. unfold strnlen_s_prog. walk. apply nlen_loop_rets. lia. Qed.
Lemma strnlen_bind_writes {B} P c str smax bos (f : Z -> prog B) :
  (forall len, 0 <= len <= Z.max smax 0 -> writes_in P (f len)) ->
  writes_in P (len <- strnlen_s_prog c str smax bos ;; f len).
Proof. intros Hf. eapply writes_in_bind_rets; [|apply strnlen_s_prog_rets|exact Hf]. walk. Qed.

Global Hint Extern 2 (writes_in _ (bind (strnlen_s_prog _ _ _ _) _)) => (apply strnlen_bind_writes; walk) : walk.

Lemma bos_overflow_writes P c d dmax : range_in P d (Z.max dmax 1) -> writes_in P (bos_overflow c d dmax).
Proof. intros HP. unfold bos_overflow. walk. Qed.
Global Hint Resolve bos_overflow_writes : walk.

Section CopyLoopWrites.
  Variables (P : Z -> Prop) (c : cfg) (w : Z) (fwd : bool) (od odmax bumper : Z) (use_slen : bool).
  Hypothesis Hw : 0 < w.
  Hypothesis HP : range_in P od (Z.max odmax 1 * w).

  (* d is the n-th element from the end of dest *)
  Lemma copy_loop_writes n : forall d s sl,
    od <= d -> d + Z.of_nat n * w = od + odmax * w ->
    writes_in P (copy_loop c w fwd od odmax bumper use_slen n d s sl).
  Proof. induction n as [|n IH]; walk. Qed.

  Lemma find_end_writes (k : nat -> Z -> prog Z) n : forall d,
    od <= d -> d + Z.of_nat n * w = od + odmax * w ->
    (forall n' d', od <= d' -> d' + Z.of_nat n' * w = od + odmax * w -> writes_in P (k n' d')) ->
    writes_in P (find_end c w fwd od odmax bumper n d k).
  Proof. induction n as [|n IH]; walk. Qed.
End CopyLoopWrites.
Global Hint Resolve copy_loop_writes find_end_writes : walk.

Lemma zero_loop_plain w n : forall d, plain (zero_loop w n d).
Proof. induction n; walk. Qed.
Global Hint Resolve zero_loop_plain : walk.
Lemma nlen_loop_plain g w n : forall p cnt bos, plain (nlen_loop g w n p cnt bos).
Proof. induction n as [|n IH]; walk. Qed.
Global Hint Resolve nlen_loop_plain : walk.
Lemma copy_loop_plain c w fwd od odmax bumper us n : forall d s sl, plain (copy_loop c w fwd od odmax bumper us n d s sl).
Proof. induction n as [|n IH]; walk. Qed.
Global Hint Resolve copy_loop_plain : walk.
Lemma find_end_plain c w fwd od odmax bumper (k : nat -> Z -> prog Z) n : forall d,
  (forall n' d', plain (k n' d')) -> plain (find_end c w fwd od odmax bumper n d k).
Proof. induction n as [|n IH]; walk. Qed.
Global Hint Resolve find_end_plain : walk.

Lemma handle_error_plain c w d n code : plain (handle_error c w d n code).
Proof. unfold handle_error. walk. Qed.
Lemma bos_overflow_plain c d n : plain (bos_overflow c d n).
Proof. unfold bos_overflow. walk. Qed.
Global Hint Resolve handle_error_plain bos_overflow_plain : walk.

Lemma zero_loop_noh w n : forall d, no_handler (zero_loop w n d).
Proof. induction n; walk. Qed.
Global Hint Resolve zero_loop_noh : walk.
Lemma nlen_loop_noh g w n : forall p cnt bos, no_handler (nlen_loop g w n p cnt bos).
Proof. induction n as [|n IH]; walk. Qed.
Global Hint Resolve nlen_loop_noh : walk.
Lemma strnlen_s_prog_noh c str smax bos : str <> 0 -> 1 <= smax <= rmax_str c -> no_handler (strnlen_s_prog c str smax bos).
Proof. intros Hs Hm. unfold strnlen_s_prog. walk. Qed.
Global Hint Resolve strnlen_s_prog_noh : walk.

(* exactly one report with the returned code, or none and success *)
Definition report_post (k : hkind) (hs : list (hkind * Z)) (r : Z) : Prop :=
  (r = 0 /\ hs = []) \/ (r <> 0 /\ hs = [(k, r)]).
Lemma report_ok k : report_post k [] EOK.
Proof. left. split; reflexivity. Qed.
(* [[] ++ ..] is how [hspec] leaves the list at a Handler: walk's cbn does not reduce [++] *)
Lemma report_one k code : code <> 0 -> report_post k ([] ++ [(k, code)]) code.
Proof. intros H. right. split; [exact H|reflexivity]. Qed.
Global Hint Resolve report_ok report_one hspec_no_handler : walk.

(* stated at [acc = []]: report_post allows one report, so a reporting part is never entered after another *)
Lemma handle_error_rep c w d n code : code <> 0 -> hspec (report_post HStr) [] (handle_error c w d n code ;;; Ret code).
Proof. intros H. unfold handle_error. walk. Qed.
Global Hint Resolve handle_error_rep : walk.
Lemma bos_overflow_rep c d dmax : d <> 0 -> 1 <= dmax <= rmax_str c -> hspec (report_post HStr) [] (bos_overflow c d dmax).
Proof. intros Hd Hm. unfold bos_overflow. walk. Qed.
Global Hint Resolve bos_overflow_rep : walk.
Lemma copy_loop_rep c w fwd od odmax bumper us n : forall d s sl,
  hspec (report_post HStr) [] (copy_loop c w fwd od odmax bumper us n d s sl).
Proof. induction n as [|n IH]; walk. Qed.
Global Hint Resolve copy_loop_rep : walk.
Lemma find_end_rep c w fwd od odmax bumper n (k : nat -> Z -> prog Z) : forall d,
  (forall n' d', hspec (report_post HStr) [] (k n' d')) ->
  hspec (report_post HStr) [] (find_end c w fwd od odmax bumper n d k).
Proof. induction n as [|n IH]; walk. Qed.
Global Hint Resolve find_end_rep : walk.

Lemma zero_loop_reads R w n : forall d, reads_in R (zero_loop w n d).
Proof. induction n; walk. Qed.
Global Hint Resolve zero_loop_reads : walk.
Lemma nlen_loop_reads R w n : 0 < w -> forall p cnt bos, range_in R p (Z.of_nat n * w) -> reads_in R (nlen_loop true w n p cnt bos).
Proof. intros Hw. induction n as [|n IH]; walk. Qed.
Global Hint Resolve nlen_loop_reads : walk.
Lemma copy_loop_reads R c w fwd od odmax bumper us n : 0 < w -> forall d s sl,
  range_in R s (Z.of_nat n * w) -> reads_in R (copy_loop c w fwd od odmax bumper us n d s sl).
Proof. intros Hw. induction n as [|n IH]; walk. Qed.
Global Hint Resolve copy_loop_reads : walk.
