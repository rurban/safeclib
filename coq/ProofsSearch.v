(* ProofsSearch.v -- C16 (bsearch_s part): what the four theorems of Properties_C16.v about the halving loop are
   stated with (sortedness with respect to the key, the probed indices, the bytewise comparator memcmp_val). *)
From Coq Require Import ZArith Lia.
From SC Require Import Base Wp ModSearch.
Local Open Scope Z_scope.

(* the comparator's view of a sorted array: key > elements, then key = elements, then key < elements *)
Definition sorted_wrt (cmp : Z -> Z) (lo hi : Z) : Prop :=
  forall i j, lo <= i -> i <= j -> j < hi -> (cmp i <= 0 -> cmp j <= 0) /\ (cmp i < 0 -> cmp j < 0).

Lemma half_lt n : 0 < n -> 0 <= n / 2 < n.
Proof. split; [apply Z.div_pos; lia|apply Z.div_lt; lia]. Qed.

(* the indices [bsearch_abs] hands to the comparator, in order *)
Fixpoint probes (fuel : nat) (cmp : Z -> Z) (base nmemb : Z) : list Z :=
  match fuel with
  | O => nil
  | S f =>
      if nmemb <=? 0 then nil
      else let mid := base + nmemb / 2 in
           mid :: (if cmp mid =? 0 then nil else if nmemb =? 1 then nil
                   else if cmp mid <? 0 then probes f cmp base (nmemb / 2) else probes f cmp mid (nmemb - nmemb / 2))
  end.

Fixpoint memcmp_val (k : nat) (m : mem) (a b : Z) : Z :=
  match k with
  | O => 0
  | S k' => if m a <? m b then -1 else if m b <? m a then 1 else memcmp_val k' m (a + 1) (b + 1)
  end.
Lemma memcmp_prog_wp k : forall a b m (Q : Z -> mem -> Prop), Q (memcmp_val k m a b) m -> wp (memcmp_prog k a b) m Q.
Proof.
  induction k as [|k IH]; intros a b m Q HQ; cbn [memcmp_prog wp memcmp_val] in *; [exact HQ|].
  rewrite !load1. destruct (m a <? m b); [exact HQ|]. destruct (m b <? m a); [exact HQ|]. apply IH. exact HQ.
Qed.
