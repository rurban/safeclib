(* StaticsCheck.v -- C12(3): which objects in writable sections the library may own. *)
From Coq Require Import List String ZArith Bool.
Import ListNotations.
Local Open Scope string_scope.

Definition handler_vars : list string := ["str_handler"; "mem_handler"; "thrd_str_handler"; "thrd_mem_handler"].
(* read-only lookup tables that happen to live in .data (never written: checked by the segment snapshot) *)
Definition is_table (name : string) : bool :=
  prefix "UNWIF_" name || String.eqb name "errmsgs_s" || prefix "UNW16IF_" name.
Definition in_data (sec : string) : bool := String.eqb sec "d" || String.eqb sec "D".

Definition allowed_static (e : string * string * Z * string) : bool :=
  let '(file, name, size, sec) := e in
  existsb (String.eqb name) handler_vars || (in_data sec && is_table name).
Definition is_known (known : list (string * string)) (e : string * string * Z * string) : bool :=
  let '(file, name, size, sec) := e in existsb (fun k => String.eqb (fst k) file && String.eqb (snd k) name) known.
Definition inventory_ok (known : list (string * string)) (inv : list (string * string * Z * string)) : bool :=
  forallb (fun e => allowed_static e || is_known known e) inv.

Lemma inventory_ok_spec known inv : inventory_ok known inv = true ->
  forall e, In e inv -> allowed_static e = true \/ is_known known e = true.
Proof. unfold inventory_ok. rewrite forallb_forall. intros H e He. apply orb_true_iff. apply H. exact He. Qed.
