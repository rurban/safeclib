(* ProofsExt.v -- write footprints of the loops of ModExt.v and ModExt2.v, each stated as the loop's invariant: every store
   lies inside the declared destination (and, for the pointer-returning copies, the 4 bytes of *errp). *)
From Coq Require Import ZArith Lia.
From SC Require Import Base Cfg CombProofs ProofsMem ModExt ModExt2.   (* ProofsMem: for its hints *)
Local Open Scope Z_scope.

Lemma case_loop_writes P lo hi delta n : forall d, range_in P d (Z.of_nat n) -> writes_in P (case_loop lo hi delta n d).
Proof. induction n as [|n IH]; walk. Qed.
Global Hint Resolve case_loop_writes : walk.

Global Hint Unfold chk_dest_plain slack_if_nul : walk.
Lemma set_str_loop_writes P c v (k : nat -> Z -> prog Z) n : forall d, range_in P d (Z.of_nat n) ->
  (forall rem d', d <= d' -> d' + Z.of_nat rem <= d + Z.of_nat n -> writes_in P (k rem d')) ->
  writes_in P (set_str_loop c v n d k).
Proof. induction n as [|n IH]; walk. Qed.
Global Hint Extern 2 (writes_in _ (set_str_loop _ _ _ _ _)) => (apply set_str_loop_writes; walk) : walk.

Lemma nterm_loop_writes P n : forall d cnt, range_in P d (Z.of_nat n + 1) -> writes_in P (nterm_loop n d cnt).
Proof. induction n as [|n IH]; walk. Qed.
Global Hint Resolve nterm_loop_writes : walk.

Global Hint Unfold fld_slack slen_nospc_clear : walk.
Section FldWrites.
  Variables (P : Z -> Prop) (c : cfg) (fwd : bool) (od odmax bumper : Z).
  Hypothesis HP : range_in P od (Z.max odmax 1).
  Lemma fld_loop_writes sl : forall rem d s, (sl <= rem)%nat -> od <= d -> d + Z.of_nat rem <= od + odmax ->
    writes_in P (fld_loop c fwd od odmax bumper sl rem d s).
  Proof. induction sl as [|sl IH]; walk. Qed.
  Lemma fldin_loop_writes rem : forall d s, od <= d -> d + Z.of_nat rem <= od + odmax ->
    writes_in P (fldin_loop c fwd od odmax bumper rem d s).
  Proof. induction rem as [|rem IH]; walk. Qed.
  Lemma fldout_loop_writes sl : forall rem d s, od <= d -> d + Z.of_nat rem <= od + odmax ->
    writes_in P (fldout_loop c fwd od odmax bumper sl rem d s).
  Proof. induction sl as [|sl IH]; walk. Qed.
End FldWrites.
Global Hint Resolve fld_loop_writes fldin_loop_writes fldout_loop_writes : walk.

Global Hint Unfold chk_fld : walk.
Lemma ccpy_loop_writes P c ch od odmax : range_in P od odmax -> forall rem n d s, n <= Z.of_nat rem -> od <= d -> d + Z.of_nat rem <= od + odmax ->
  writes_in P (ccpy_loop c ch od odmax rem n d s).
Proof. intros HP. induction rem as [|rem IH]; walk. Qed.
Global Hint Resolve ccpy_loop_writes : walk.
Lemma wmem_copy_writes c ovl rmax d dlen s count destbos srcbos :
  writes_in (ext d (dlen * wchar_w c)) (wmem_copy c ovl rmax d dlen s count destbos srcbos).
Proof. unfold wmem_copy. walk. Qed.

(* stpcpy_s / stpncpy_s store into dest[0..dmax) and the 4 bytes of *errp *)
Definition stpP (d dmax errp : Z) : Z -> Prop := fun a => ext d dmax a \/ ext errp 4 a.
Global Hint Unfold stpP : rng.
Global Hint Unfold stp_fail stp_eok : walk.
Section StpWrites.
  Variables (P : Z -> Prop) (c : cfg) (fwd : bool) (od odmax bumper errp srcbos : Z) (use_slen nt : bool).
  Hypothesis HE : range_in P errp 4.
  Hypothesis HD : range_in P od (Z.max odmax 1).
  Lemma stp_loop_writes rem : forall d s sl, od <= d -> d + Z.of_nat rem <= od + odmax ->
    writes_in P (stp_loop c fwd od odmax bumper errp srcbos use_slen nt rem d s sl).
  Proof. induction rem as [|rem IH]; walk. Qed.
  Lemma stp_walk_writes rem : forall d, od <= d -> d + Z.of_nat rem <= od + odmax -> writes_in P (stp_walk c od odmax errp rem d).
  Proof. induction rem as [|rem IH]; walk. Qed.
End StpWrites.
Global Hint Resolve stp_loop_writes stp_walk_writes : walk.
Lemma stpcpy_s_writes c d dmax s errp destbos srcbos : 0 <= dmax ->
  writes_in (stpP d dmax errp) (stpcpy_s c d dmax s errp destbos srcbos).
Proof. intros H. unfold stpcpy_s. walk. Qed.

Global Hint Unfold chk_dest_wset wslack_if_nul : walk.
(* the continuation is entered j elements into the string, with rem of the n left *)
Lemma wset_loop_writes P w v (k : nat -> Z -> prog Z) n : 0 < w -> forall d, range_in P d (Z.of_nat n * w) ->
  (forall rem d' j, 0 <= j -> d' = d + j * w -> j + Z.of_nat rem <= Z.of_nat n -> writes_in P (k rem d')) ->
  writes_in P (wset_loop w v n d k).
Proof.
  intros Hw. induction n as [|n IH]; intros d HP Hk; cbn [wset_loop]; walk; try (apply (Hk _ _ 0); lia).
  apply IH; [rng|]. intros rem d' j Hj -> Hr. apply (Hk _ _ (j + 1)); lia.
Qed.
(* wcsnset_s counts the slack from the address reached, (d' - d) / w: with d' = d + j * w that is j *)
Global Hint Extern 2 (writes_in _ (wset_loop _ _ _ _ _)) =>
  (eapply wset_loop_writes; [| |intros ? ? ? ? -> ?; rewrite ?Z.add_simpl_l, ?Z.div_mul by lia]; walk) : walk.
