(* Properties_C09.v -- C09: %n is never executed. *)
From Coq Require Import List ZArith String.
From SC Require Import FmtScan FmtProofs.
From SC.Gen Require Import Prescan.
Import ListNotations.
Local Open Scope Z_scope.

(* (A) own engine (its directive walk, FmtScan.engine_walk, from the state inside a directive): a conversion n is an error whatever flags,
   width, precision or length modifier precede it; the engine's action alphabet has no store-through-argument action *)
Theorem C09_engine_rejects_n : forall mods rest, forallb engine_mod mods = true ->
  engine_walk true (mods ++ CH_n :: rest) = [EErr].
Proof.
  induction mods as [|m mods IH]; intros rest H; cbn.
  - reflexivity.
  - cbn in H. apply andb_prop in H. destruct H as [Hm H]. rewrite Hm. apply IH. exact H.
Qed.
Print Assumptions C09_engine_rejects_n.

(* (B) entry points that hand the format to libc: the substring pre-scan is NOT sound ... *)
Theorem C09_prescan_refuted : exists fmt, prescan_accepts fmt = true /\ has_n false fmt = true.
Proof. exists [PCT; 108; CH_n]. split; reflexivity. Qed.                    (* "%ln" *)
Print Assumptions C09_prescan_refuted.
Theorem C09_prescan_refuted_escaped : prescan_accepts [PCT; PCT; PCT; CH_n] = true /\ has_n false [PCT; PCT; PCT; CH_n] = true.
Proof. split; reflexivity. Qed.                                                (* "%%%n" *)
Theorem C09_prescan_refuted_width_scanf : prescan_accepts [PCT; 53; CH_n] = true /\ has_n true [PCT; 53; CH_n] = true.
Proof. split; reflexivity. Qed.                                                (* "%5n" *)
Theorem C09_prescan_refuted_second_occurrence :
  prescan_accepts [PCT; PCT; CH_n; 32; PCT; CH_n] = true /\ has_n false [PCT; PCT; CH_n; 32; PCT; CH_n] = true.
Proof. split; reflexivity. Qed.                                                (* "%%n %n": only the first occurrence is examined *)
(* ... outside the known-finding region (prescan_accepts && has_n) the property holds by definition of the
   region; and the region is empty on the class of simple formats: every % directly followed by its
   conversion character, no escaped percent signs *)
Theorem C09_prescan_except_simple : forall scanf fmt, simple scanf fmt = true -> C09_ok scanf fmt = true.
Proof.
  intros scanf fmt Hs. unfold C09_ok, delegating_entry. destruct (prescan_accepts fmt) eqn:E; [|reflexivity].
  rewrite (prescan_sound_on_simple scanf fmt Hs E). reflexivity.
Qed.
Print Assumptions C09_prescan_except_simple.
Theorem C09_rejected_is_safe : forall scanf fmt, prescan_accepts fmt = false -> C09_ok scanf fmt = true.
Proof. intros scanf fmt H. unfold C09_ok, delegating_entry. rewrite H. reflexivity. Qed.
Print Assumptions C09_rejected_is_safe.

(* (T2) every one of the 28 entry points in the working tree uses the modelled pre-scan and then the own
   engine or libc, or forwards to vsnprintf_s; the engine's case 'n' reports and returns (regenerated) *)
Local Open Scope string_scope.
Definition entry_ok (e : string * string * string * bool * bool) : bool :=
  let '(name, idiom, fmtr, wide, scanf) := e in
  (String.eqb idiom "standard" && (String.eqb fmtr "engine" || String.eqb fmtr "libc"))
  || (String.eqb idiom "none" && String.eqb fmtr "entry:vsnprintf_s").
Theorem C09_entries_recognised :
  forallb entry_ok entries = true /\ List.length entries = 28%nat /\ engine_n_case_reports_and_returns = true.
Proof. vm_compute. repeat split; reflexivity. Qed.
Print Assumptions C09_entries_recognised.
Example C09_example : delegating_entry false [97; 98; PCT; CH_n] = Rejected /\ simple false [97; PCT; 100] = true.
Proof. split; reflexivity. Qed.
