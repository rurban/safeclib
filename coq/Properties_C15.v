(* Properties_C15.v -- C15: multibyte and wide conversions.
   Proved: the codec laws for every encodable code point (decode . encode = id, announced length, byte range).
   Wrapper level (ProofsConv.v): with the C library's converters modelled as storing as many elements as they are asked
   for, every store of mbstowcs_s, wcstombs_s, wcrtomb_s, wctomb_s lies inside dest[0..dmax) or the result cell, whatever
   source and len (the 'never more than dmax' repairs); where a known object size makes the failing exit clear the whole
   object is delimited by conv_bos_ok, with a counterexample outside it.  Functional: on success wcrtomb_s / wctomb_s leave
   exactly the locale's encoding of the character and its length (..._delivers_the_encoding); their reports on valid
   pointers find dest cleared (..._reports_after_clearing, HandlerTime.v).  What mbstowcs_s / wcstombs_s compute is covered
   by the correspondence only. *)
From Coq Require Import List ZArith Lia.
From SC Require Import Base Cfg Comb CombProofs Utf8 ModConv ProofsConv PropDefs HandlerTime.
From SC.Gen Require Import Consts.
Local Open Scope Z_scope.
Theorem C15_decode_encode : forall cp, enc_valid cp = true -> dec_list (utf8_enc cp) = Some (cp, enc_len cp).
Proof.
  intros cp H. unfold enc_valid, is_surrogate in H. unfold utf8_enc, enc_len.
  destruct (Z.ltb_spec cp 0x80); [apply rt1; lia|].
  destruct (Z.ltb_spec cp 0x800); [apply rt2; lia|].
  destruct (Z.ltb_spec cp 0x10000); [apply rt3; [|unfold is_surrogate]; lia|].
  apply rt4. lia.
Qed.
Print Assumptions C15_decode_encode.
Theorem C15_encode_bytes_and_length : forall cp, 0 <= cp < 0x200000 ->
  Forall (fun b => 0 <= b < 256) (utf8_enc cp) /\ Z.of_nat (length (utf8_enc cp)) = enc_len cp.
Proof.
  intros cp H. unfold utf8_enc, enc_len.
  destruct (Z.ltb_spec cp 0x80); [|destruct (Z.ltb_spec cp 0x800); [|destruct (Z.ltb_spec cp 0x10000)]];
    (split; [repeat constructor; Z.div_mod_to_equations; lia|reflexivity]).
Qed.
Print Assumptions C15_encode_bytes_and_length.
Theorem C15_mbstowcs_s_stores : forall c utf8 retvalp dest dmax src len destbos, 0 < wchar_w c -> 0 <= dmax -> 0 <= len ->
  conv_bos_ok (wchar_w c) dmax len destbos ->
  C01_holds (convP dest (dmax * wchar_w c) retvalp 8) (mbstowcs_s c utf8 retvalp dest dmax src len destbos).
Proof.
  intros c utf8 retvalp dest dmax src len destbos Hw H0 _ Hb. apply C01_from_writes.
  unfold mbstowcs_s. cbv zeta. destruct (retvalp =? 0); [exact I|]. split; [rng|].
  destruct (src =? 0); [walk|]. apply conv_checks_writes; [exact H0| |].
  - intros Hd. destruct (dest =? src); [exact I|].
    eapply writes_in_bind_rets with (Q := fun r => 0 <= r); [|apply mbstowcs_loop_rets; lia|]; walk.
    (* len is cut to dmax when there is a dest *)
    unfold mbstowcs_m. destruct (Z.eqb_spec dest 0), (Z.ltb_spec dmax len); cbn [negb andb]; walk.
  - (* known object size, too small: w <= destbos <= dmax * w *)
    intros Hd H1 Hu Ho code. unfold conv_bos_ok in Hb. walk.
Qed.
Print Assumptions C15_mbstowcs_s_stores.
Theorem C15_wcstombs_s_stores : forall c utf8 retvalp dest dmax src len destbos, 0 <= dmax -> 0 <= len ->
  conv_bos_ok 1 dmax len destbos ->
  C01_holds (convP dest dmax retvalp 8) (wcstombs_s c utf8 retvalp dest dmax src len destbos).
Proof.
  intros c utf8 retvalp dest dmax src len destbos H0 _ Hb. apply C01_from_writes.
  unfold wcstombs_s. cbv zeta. destruct (retvalp =? 0); [exact I|]. split; [rng|].
  apply conv_checks_writes; [exact H0| |].
  - intros Hd. unfold wcstombs_m. walk.
  - (* as for mbstowcs_s: 1 <= destbos <= dmax *)
    intros Hd H1 Hu Ho code. unfold conv_bos_ok in Hb. walk.
Qed.
Print Assumptions C15_wcstombs_s_stores.
Theorem C15_wcrtomb_s_stores : forall c utf8 retvalp dest dmax wc ps destbos, 0 <= dmax ->
  C01_holds (convP dest dmax retvalp 8) (wcrtomb_s c utf8 retvalp dest dmax wc ps destbos).
Proof.
  intros c utf8 retvalp dest dmax wc ps destbos H0. apply C01_from_writes.
  unfold wcrtomb_s. walk. apply chk_c_dest_writes; [|exact H0]. intros Hd. split; [rng|].
  apply deliver_writes with (term := true); [exact Hd|]. intros Hne E. split; [|lia]. apply wcx_bytes_le; [exact Hne|discriminate].
Qed.
Print Assumptions C15_wcrtomb_s_stores.
Theorem C15_wctomb_s_stores : forall c utf8 retvalp dest dmax wc destbos, 0 <= dmax ->
  C01_holds (convP dest dmax retvalp 4) (wctomb_s c utf8 retvalp dest dmax wc destbos).
Proof.
  intros c utf8 retvalp dest dmax wc destbos H0. apply C01_from_writes.
  unfold wctomb_s. walk. apply chk_c_dest_writes; [|exact H0]. intros Hd. split; [rng|].
  apply deliver_writes with (term := false); [exact Hd|]. intros Hne E. split; [|lia]. apply wcx_bytes_le; [exact Hne|lia].
Qed.
Print Assumptions C15_wctomb_s_stores.
(* functional: wcrtomb_s stores exactly the encoding of the character (UTF-8 per Utf8.v in C.UTF-8, one byte in C), reports its
   length, and nulls the rest of dest with null-slack; with C15_decode_encode this is the single-character round trip *)
Theorem C15_wcrtomb_s_delivers_the_encoding : forall c utf8 retvalp dest dmax wc ps m bs,
  retvalp <> 0 -> ps <> 0 -> dest <> 0 -> 1 <= dmax <= rmax_wstr c -> dmax < 18446744073709551616 -> wc_enc utf8 wc = Some bs ->
  Z.of_nat (length bs) < dmax -> Forall (fun b => 0 <= b < 256) bs ->
  (retvalp + 8 <= dest \/ dest + dmax <= retvalp) ->
  Wp.wp (wcrtomb_s c utf8 retvalp dest dmax wc ps BOS_UNKNOWN) m (fun r m' =>
     r = EOK /\ load m' 8 retvalp = Z.of_nat (length bs) /\
     (forall i, (i < length bs)%nat -> m' (dest + Z.of_nat i) = nth i bs 0) /\
     (null_slack c = true -> forall x, dest + Z.of_nat (length bs) <= x < dest + dmax -> m' x = 0) /\
     (forall x, ~ (dest <= x < dest + dmax) -> ~ (retvalp <= x < retvalp + 8) -> m' x = m x)).
Proof.
  intros c utf8 retvalp dest dmax wc ps m bs Hr Hp Hd Hm Hbig He Hfit Hb Hdisj. unfold wcrtomb_s.
  (* here and below not [tests]: it would also decide comparisons inside the exit, whose text is to match ProofsConv.deliver *)
  replace (retvalp =? 0) with false by lia. replace (ps =? 0) with false by lia. rewrite chk_c_dest_ok by assumption.
  pose proof (wcx_spec utf8 true dest wc Hd) as S. rewrite He in S. destruct S as [-> ->].
  apply deliver_spec with (term := true); auto; change (256 ^ 8) with 18446744073709551616; lia.
Qed.
Print Assumptions C15_wcrtomb_s_delivers_the_encoding.
Theorem C15_wctomb_s_delivers_the_encoding : forall c utf8 retvalp dest dmax wc m bs,
  retvalp <> 0 -> dest <> 0 -> 1 <= dmax <= rmax_wstr c -> wc_enc utf8 wc = Some bs -> (1 <= length bs)%nat ->
  Z.of_nat (length bs) < dmax -> Z.of_nat (length bs) < 4294967296 -> Forall (fun b => 0 <= b < 256) bs ->
  (retvalp + 4 <= dest \/ dest + dmax <= retvalp) ->
  Wp.wp (wctomb_s c utf8 retvalp dest dmax wc BOS_UNKNOWN) m (fun r m' =>
     r = EOK /\ load m' 4 retvalp = Z.of_nat (length bs) /\
     (forall i, (i < length bs)%nat -> m' (dest + Z.of_nat i) = nth i bs 0) /\
     (null_slack c = true -> forall x, dest + Z.of_nat (length bs) <= x < dest + dmax -> m' x = 0) /\
     (forall x, ~ (dest <= x < dest + dmax) -> ~ (retvalp <= x < retvalp + 4) -> m' x = m x)).
Proof.
  intros c utf8 retvalp dest dmax wc m bs Hr Hd Hm He Hne Hfit Hbig Hb Hdisj. unfold wctomb_s.
  replace (retvalp =? 0) with false by lia. rewrite chk_c_dest_ok by assumption.
  pose proof (wcx_spec utf8 false dest wc Hd) as S. rewrite He in S. destruct S as [-> ->].
  apply deliver_spec with (term := false); auto; change (256 ^ 4) with 4294967296; lia.
Qed.
Print Assumptions C15_wctomb_s_delivers_the_encoding.
(* known finding conv-known-bos-len-clears-object: dmax elements fit the known object, len elements do not: the failing exit clears the object *)
Theorem C15_mbstowcs_s_bos_len_refuted : ~ writes_in (convP 1000 (2 * 4) 5000 8) (mbstowcs_s cfg_default true 5000 1000 2 3000 20 40).
Proof. cbn. intros [_ H]. destruct H as [H _]. specialize (H 1039 ltac:(lia)). unfold convP, ext in H. lia. Qed.
Print Assumptions C15_mbstowcs_s_bos_len_refuted.
Theorem C15_cfg_repo_wf : wf_cfg cfg_repo.
Proof. exact wf_cfg_repo. Qed.
Example C15_example : dec_list (utf8_enc 0x20AC) = Some (0x20AC, 3) /\ utf8_enc 0x20AC = (0xE2 :: 0x82 :: 0xAC :: nil).
Proof. split; reflexivity. Qed.

(* what the constraint handler finds (a handler need not return): every report the single-character converters make with a
   usable destination and non-null retvalp (and ps) happens after dest has been cleared -- dest[0] = 0, and all dmax bytes with null-slack *)
Theorem C15_wctomb_s_reports_after_clearing : forall c utf8 retvalp dest dmax wc m,
  retvalp <> 0 -> dest <> 0 -> 1 <= dmax <= rmax_wstr c ->
  at_handler (dest_cleared c dest dmax) (wctomb_s c utf8 retvalp dest dmax wc BOS_UNKNOWN) m.
Proof.
  intros c utf8 retvalp dest dmax wc m Hr Hd Hm. unfold wctomb_s. replace (retvalp =? 0) with false by lia. rewrite chk_c_dest_ok by assumption.
  apply deliver_reports_cleared with (term := false); lia.
Qed.
Print Assumptions C15_wctomb_s_reports_after_clearing.

Theorem C15_wcrtomb_s_reports_after_clearing : forall c utf8 retvalp dest dmax wc ps m,
  retvalp <> 0 -> ps <> 0 -> dest <> 0 -> 1 <= dmax <= rmax_wstr c ->
  at_handler (dest_cleared c dest dmax) (wcrtomb_s c utf8 retvalp dest dmax wc ps BOS_UNKNOWN) m.
Proof.
  intros c utf8 retvalp dest dmax wc ps m Hr Hp Hd Hm. unfold wcrtomb_s. replace (retvalp =? 0) with false by lia. replace (ps =? 0) with false by lia.
  rewrite chk_c_dest_ok by assumption.
  apply deliver_reports_cleared with (term := true); lia.
Qed.
Print Assumptions C15_wcrtomb_s_reports_after_clearing.

Theorem C15_error_helper_clears_before_it_reports : forall c w d dmax code m, 0 < w -> 0 < dmax ->
  at_handler (fun m' => load m' w d = 0 /\ (null_slack c = true -> forall a, d <= a < d + dmax * w -> m' a = 0))
             (handle_error c w d dmax code) m.
Proof. exact handle_error_clears_first. Qed.
Print Assumptions C15_error_helper_clears_before_it_reports.
