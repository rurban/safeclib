(* Properties_C11.v -- C11: formatted output matches C printf for the supported conversions, or fails.
   The engine model (FmtEngine.v) is tied to src/str/vsnprintf_s.c by the correspondence check on every run; the C library's
   own snprintf is the reference of the check. *)
From Coq Require Import List ZArith.
From SC Require Import FmtEngine FmtEngineProofs.
Import ListNotations.
Local Open Scope Z_scope.

(* "return the count stored": a non-negative return is the number of characters the engine produced, never more than dmax;
   below dmax, dest holds exactly those characters and the terminator -- every format the model renders (w_known), every argument list, every dmax *)
Theorem C11_return_is_count_stored : forall slack rmax init fmt args, let r := vsnprintf_s_m slack rmax init fmt args in
  w_known r = true -> 0 <= w_ret r ->
  let text := rev (e_out (run_engine (Z.of_nat (length init)) fmt args)) in
  w_ret r = Z.of_nat (length text) /\ w_ret r <= Z.of_nat (length init) /\
  (w_ret r < Z.of_nat (length init) -> firstn (length text) (w_dest r) = text /\ nth (length text) (w_dest r) 1 = 0).
Proof. exact vsnprintf_count. Qed.
Print Assumptions C11_return_is_count_stored.
(* the engine never stores beyond bufsize, whatever the format and arguments *)
Theorem C11_engine_bounded : forall bufsize fmt args, 0 <= bufsize -> Z.of_nat (length (e_out (run_engine bufsize fmt args))) <= bufsize.
Proof. intros bufsize fmt args. exact (proj1 (engine_ok bufsize _ fmt args [])). Qed.
Print Assumptions C11_engine_bounded.
(* dest is modelled as the list of its dmax bytes: that it keeps its length says that nothing is stored beyond dmax *)
Theorem C11_dest_extent_unchanged : forall slack rmax init fmt args,
  length (w_dest (vsnprintf_s_m slack rmax init fmt args)) = length init /\ length (w_dest (vsprintf_s_m slack rmax init fmt args)) = length init.
Proof. intros. split; [apply vsnprintf_dest_length|apply vsprintf_dest_length]. Qed.
Print Assumptions C11_dest_extent_unchanged.
(* every failure is a negative code *)
Theorem C11_errors_negative : forall bufsize fuel l args o, match e_fin (engine fuel bufsize l args o) with FErr r _ _ => r < 0 | _ => True end.
Proof. intros bufsize fuel l args o. exact (proj2 (engine_ok bufsize fuel l args o)). Qed.
Print Assumptions C11_errors_negative.
(* the digits printed are the positional representation of the argument (bases 2..16, every value below base^32) *)
Theorem C11_digits_are_the_value : forall up base v, 2 <= base <= 16 -> 0 <= v < base ^ 32 -> eval_lsf base (digits_from 32 up base v) = v.
Proof. exact (digits_value 32). Qed.
Print Assumptions C11_digits_are_the_value.
(* ntoa under the flags of a conversion without flag, width or precision (plain up), values below base ^ 31: exactly the C
   standard's rendering spec_int *)
Theorem C11_plain_conversions_match_C : forall up base v neg, 2 <= base <= 16 -> 0 <= v < base ^ 31 ->
  ntoa_text v neg base 0 0 (plain up) = spec_int v neg base 0 0 (plain up).
Proof. exact plain_conversion_agrees. Qed.
Print Assumptions C11_plain_conversions_match_C.
(* that the engine equals spec_int for every flag, width and precision is FALSE of the faithful model; witnesses: *)
(* exactly dmax characters: the last one is overwritten by the terminator and dmax is returned -- the statement of the
   property ("fail when the text does not fit") is false of the model *)
Theorem C11_exact_fit_refuted : exists init fmt args, let r := vsnprintf_s_m true 4096 init fmt args in
  w_ret r = Z.of_nat (length init) /\ w_dest r = [49; 50; 0].
Proof. exists [165; 165; 165], [37; 100], [AInt 123]. vm_compute. split; reflexivity. Qed.
Print Assumptions C11_exact_fit_refuted.
Theorem C11_left_precision_refuted : ntoa_text 256 false 16 6 0 (fl_of true false false false false true true) <> spec_int 256 false 16 6 0 (fl_of true false false false false true true).
Proof. exact left_precision_refuted. Qed.
Theorem C11_hash_width_refuted : ntoa_text 4660 false 16 0 4 (fl_of false false false true false false false) <> spec_int 4660 false 16 0 4 (fl_of false false false true false false false).
Proof. exact hash_width_refuted. Qed.
Theorem C11_hash_octal_precision_refuted : ntoa_text 1 false 8 6 0 (fl_of false false false true false true false) <> spec_int 1 false 8 6 0 (fl_of false false false true false true false).
Proof. exact hash_octal_precision_refuted. Qed.
Theorem C11_buffer32_refuted : ntoa_text 1 false 10 40 0 (fl_of false false false false false true false) <> spec_int 1 false 10 40 0 (fl_of false false false false false true false).
Proof. exact buffer32_refuted. Qed.
Print Assumptions C11_buffer32_refuted.
(* non-vacuity: a call that succeeds with room to spare *)
Example C11_example : let r := vsnprintf_s_m true 4096 (repeat 165 12) [120; 61; 37; 48; 53; 100; 33] [AInt (-42)] in
  w_ret r = 8 /\ w_dest r = [120; 61; 45; 48; 48; 52; 50; 33; 0; 0; 0; 0].
Proof. vm_compute. split; reflexivity. Qed.
