(* PropStr.v -- the shapes in which C03, C04, C06, C07, C08 speak of the result of a string producer,
   the complete outcome of a copy / concatenate call, and each property as a consequence of it. *)
From Coq Require Import ZArith Lia.
From SC Require Import Base Wp Cfg CombProofs CopySpec.
Local Open Scope Z_scope.

Section Cleared.
  Variables (c : cfg) (w od odmax : Z).
  Hypothesis Hw : 0 < w.
  Hypothesis Hod : 1 <= odmax.
  Notation elem m a := (load m w a).

  Lemma cleared_first m' : cleared c w m' od odmax -> elem m' od = 0.
  Proof.
    unfold cleared. destruct (null_slack c); auto. intros H. apply load_zero.
    intros x Hx. apply H. pose proof (mul_ge_self w odmax Hw Hod). lia.
  Qed.
  Lemma cleared_all m' : null_slack c = true -> cleared c w m' od odmax ->
    forall a, od <= a < od + odmax * w -> m' a = 0.
  Proof. unfold cleared. intros ->. auto. Qed.
End Cleared.

Definition terminated (w : Z) (m' : mem) (d dmax : Z) : Prop :=
  exists i, 0 <= i < dmax /\ load m' w (d + i * w) = 0.

(* C06 for a result placed at element index P of dest *)
Definition exact_result (w : Z) (m m' : mem) (d dmax s P t : Z) : Prop :=
  P + t < dmax /\
  (forall j, 0 <= j < t -> load m' w (d + (P + j) * w) = load m w (s + j * w)) /\
  load m' w (d + (P + t) * w) = 0 /\ (forall a, a < d + P * w -> m' a = m a).

(* without null-slack nothing is cleared: the claim is then that every byte behind the terminator (element e), in dest
   and beyond, is unchanged *)
Definition slack_clean (c : cfg) (w : Z) (m m' : mem) (d dmax e : Z) : Prop :=
  if null_slack c then forall a, d + e * w <= a < d + dmax * w -> m' a = 0
  else forall a, d + (e + 1) * w <= a -> m' a = m a.

Section CatGap.
  Variables (d s g P : Z).
  (* the distance that counts: forward, the dest string already consumed P of it *)
  Definition cat_gap : Z := if d <? s then g - P else g.
End CatGap.

(* The whole story of one call as far as dest and the result code go (bytes outside dest: the write footprint, C01).
   The source ends at index t, the result goes to element index P of dest
   where n elements are left, and the bumper fires after g elements (g <= 0: at once).  Whichever of
   t, g, n is reached first decides; a tie between the source end and another goes against success. *)
Definition outcome (c : cfg) (w : Z) (m : mem) (d dmax s P n g t r : Z) (m' : mem) : Prop :=
  (t < g -> t < n -> r = EOK /\ exact_result w m m' d dmax s P t /\ slack_clean c w m m' d dmax (P + t)) /\
  (g <= t -> g < n -> r = ESOVRLP /\ cleared c w m' d dmax) /\
  (n <= t -> n <= g -> r = ESNOSPC /\ cleared c w m' d dmax).

Section OutcomeProps.
  Variables (c : cfg) (w : Z) (m : mem) (d dmax s P n g t r : Z) (m' : mem).
  Hypothesis Ho : outcome c w m d dmax s P n g t r m'.

  Lemma outcome_cases :
    (r = EOK /\ t < g /\ t < n /\ exact_result w m m' d dmax s P t /\ slack_clean c w m m' d dmax (P + t)) \/
    (r <> EOK /\ cleared c w m' d dmax).
  Proof.
    destruct Ho as (A & B & C). destruct (Z_lt_dec t g) as [Hg|Hg], (Z_lt_dec t n) as [Hn|Hn].
    1: left; destruct (A Hg Hn) as (? & ? & ?); auto.
    (* the source does not end first: the bumper (B) or the space (C) does, whichever is nearer *)
    all: right; destruct (Z_lt_dec g n); [destruct B as [-> ?]|destruct C as [-> ?]]; try lia; (split; [discriminate|assumption]).
  Qed.

  Lemma outcome_C03 : 0 < w -> 1 <= dmax -> 0 <= P + t -> terminated w m' d dmax.
  Proof.
    intros Hw Hd Ht. destruct outcome_cases as [(_ & _ & _ & (Hlt & _ & Hz & _) & _)|[_ Hc]].
    - exists (P + t). split; [lia|exact Hz].
    - exists 0. split; [lia|]. rewrite Z.mul_0_l, Z.add_0_r. exact (cleared_first c w d dmax Hw Hd m' Hc).
  Qed.
  Lemma outcome_C04 : r <> EOK -> cleared c w m' d dmax.
  Proof. destruct outcome_cases as [[-> _]|[_ Hc]]; [contradiction|auto]. Qed.
  Lemma outcome_C06 : (r = EOK -> exact_result w m m' d dmax s P t) /\ (n <= t -> r <> EOK).
  Proof. destruct outcome_cases as [(-> & _ & Hn & He & _)|[Hr _]]; split; auto; try contradiction; lia. Qed.
  Lemma outcome_C07 :
    (g <= t -> g < n -> r = ESOVRLP /\ cleared c w m' d dmax) /\
    (t < g -> t < n -> r = EOK /\ exact_result w m m' d dmax s P t) /\
    (n <= t -> n <= g -> r = ESNOSPC /\ cleared c w m' d dmax).
  Proof. destruct Ho as (A & B & C). split; [exact B|split; [|exact C]]. intros Hg Hn. destruct (A Hg Hn) as (? & ? & _). auto. Qed.
  Lemma outcome_C08 : r = EOK -> slack_clean c w m m' d dmax (P + t).
  Proof. destruct outcome_cases as [(_ & _ & _ & _ & Hs)|[Hr _]]; [auto|contradiction]. Qed.
End OutcomeProps.
Arguments outcome_C03 {c w m d dmax s P n g t r m'}.
Arguments outcome_C04 {c w m d dmax s P n g t r m'}.
Arguments outcome_C06 {c w m d dmax s P n g t r m'}.
Arguments outcome_C07 {c w m d dmax s P n g t r m'}.
Arguments outcome_C08 {c w m d dmax s P n g t r m'}.
