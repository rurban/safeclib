(* Properties_C19.v -- C19: timingsafe comparisons: (a) what the two loops return, (b) that the loops of the working
   tree type-check as constant-time, and a bounded cross-check of the regenerated loops against the hand models. *)
From Coq Require Import List ZArith Lia Bool.
From SC Require Import Base Wp ModTs ProofsTs ConstTime.
From SC.Gen Require Import TsProgs.
Import ListNotations.
Local Open Scope Z_scope.

(* (a) results, every n, all contents *)
Theorem C19_bcmp_result : forall n p1 p2 m, wf_mem m ->
  wp (bcmp_loop n p1 p2 0) m (fun r m' =>
     (r = 0 \/ r = 1) /\ (r = 0 <-> (0 = 0 /\ forall i, 0 <= i < Z.of_nat n -> m (p1 + i) = m (p2 + i)))).
Proof. intros. exact (bcmp_loop_spec n p1 p2 0 m H (Z.le_refl 0)). Qed.
Print Assumptions C19_bcmp_result.
Theorem C19_memcmp_result : forall n p1 p2 m, wf_mem m ->
  wp (tsmemcmp_loop n p1 p2 0 0) m (fun r m' => r = first_diff_sign n m p1 p2).
Proof.
  induction n as [|n IH]; intros p1 p2 m Hm; cbn [tsmemcmp_loop wp first_diff_sign]; [reflexivity|].
  rewrite !load1, (shiftr_byte_diff (m p1) (m p2)), (shiftr_byte_diff (m p2) (m p1)) by apply Hm.
  (* in each case the new [res] and [done] are closed terms *)
  destruct (Z.ltb_spec (m p1) (m p2)), (Z.ltb_spec (m p2) (m p1)); [lia| | |].
  - apply (tsmemcmp_loop_decided n _ _ (-1)).
  - apply (tsmemcmp_loop_decided n _ _ 1).
  - apply (IH _ _ m Hm).
Qed.
Print Assumptions C19_memcmp_result.
(* the byte-pair fact behind it *)
Theorem C19_byte_pairs : forall a b, 0 <= a < 256 -> 0 <= b < 256 -> Z.shiftr (a - b) 8 = if a <? b then -1 else 0.
Proof. exact shiftr_byte_diff. Qed.
Print Assumptions C19_byte_pairs.

(* (b) data independence: proved once for the language (whatever the inference computes, a successful check is a
   typing derivation) ... *)
Theorem C19_welltyped_leaks_nothing : forall nvars s, ct_check nvars s = true ->
  forall fuel e m1 m2,
  match cexec fuel s e m1, cexec fuel s e m2 with
  | Some (_, l1), Some (_, l2) => l1 = l2
  | None, None => True
  | _, _ => False
  end.
Proof.
  intros nvars s H fuel e m1 m2. pose proof (ct_noninterference _ fuel s e e m1 m2 H (fun x _ => eq_refl)) as N.
  destruct (cexec fuel s e m1) as [[? ?]|], (cexec fuel s e m2) as [[? ?]|]; auto. destruct N; auto.
Qed.
Print Assumptions C19_welltyped_leaks_nothing.
(* ... and the check succeeds on the loops of the working tree, regenerated from the clang AST on every run; by the
   theorem above, for given arguments their sequence of branch outcomes and accessed addresses is the same for all
   memories.  translation_complete: the translator (harness/ctast_tr.py) met no construct outside [cstmt]. *)
Theorem C19_bcmp_source_is_constant_time :
  translation_complete = true /\ ct_check timingsafe_bcmp_chk_nvars timingsafe_bcmp_chk_body = true.
Proof. vm_compute. split; reflexivity. Qed.
Print Assumptions C19_bcmp_source_is_constant_time.
Theorem C19_memcmp_source_is_constant_time :
  translation_complete = true /\ ct_check timingsafe_memcmp_chk_nvars timingsafe_memcmp_chk_body = true.
Proof. vm_compute. split; reflexivity. Qed.
Print Assumptions C19_memcmp_source_is_constant_time.

(* bounded cross-check, by evaluation: on all regions of length <= 3 over {0, 1, 255} the regenerated loops compute
   what the hand models compute.  Fuel bounds the depth of [cexec]'s recursion (nesting of the body plus one
   per iteration; n = 3 needs 12), and running out would make the check false. *)
Definition ast_result (body : cstmt) (ret : cexpr) (p1 p2 n : Z) (m : Z -> Z) : option Z :=
  match cexec 200 body (fun x => match x with O => p1 | S O => p2 | S (S O) => n | _ => 0 end) m with
  | Some (env, _) => Some (fst (ceval ret env m)) | None => None end.
Definition mem3 (a b c d e f : Z) : Z -> Z := fun x =>
  if x =? 100 then a else if x =? 101 then b else if x =? 102 then c else if x =? 200 then d else if x =? 201 then e else if x =? 202 then f else 0.
Definition vals := [0; 1; 255].
Definition cross_check : bool :=
  forallb (fun n => forallb (fun a => forallb (fun b => forallb (fun c0 => forallb (fun d => forallb (fun e => forallb (fun f =>
    let m := mem3 a b c0 d e f in
    match ast_result timingsafe_bcmp_chk_body timingsafe_bcmp_chk_ret 100 200 n m, ast_result timingsafe_memcmp_chk_body timingsafe_memcmp_chk_ret 100 200 n m with
    | Some r1, Some r2 =>
        (r1 =? fst (fst (exec (bcmp_loop (Z.to_nat n) 100 200 0) m))) && (r2 =? fst (fst (exec (tsmemcmp_loop (Z.to_nat n) 100 200 0 0) m)))
    | _, _ => false
    end) vals) vals) vals) vals) vals) vals) [0; 1; 2; 3].
Theorem C19_generated_agrees_with_model_bounded : cross_check = true.
Proof. vm_compute. reflexivity. Qed.
