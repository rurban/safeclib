(* PropDefs.v -- semantic statements of the properties over [run], and their derivation
   from the syntactic footprint predicates. *)
From Coq Require Import List ZArith.
From SC Require Import Base CombProofs.
Import ListNotations.
Local Open Scope Z_scope.

(* C01: memory outside P unchanged and every write event inside P, for every allocation-failure oracle *)
Definition C01_holds {A} (P : Z -> Prop) (p : prog A) : Prop :=
  forall fail m, let st := snd (run fail p (w0 m)) in
    (forall a, ~ P a -> wm st a = m a) /\ Forall (ev_write_ok P) (rev (wtr st)).
Lemma C01_from_writes {A} (P : Z -> Prop) (p : prog A) : writes_in P p -> C01_holds P p.
Proof.
  intros H fail m. split.
  - intros a Ha. apply (run_frame fail P p H (w0 m) a Ha).
  - apply Forall_rev. apply (run_trace_writes fail P p H (w0 m)). constructor.
Qed.

(* C02 (syntactic extents): every read event lies inside R *)
Definition C02_holds {A} (R : Z -> Prop) (p : prog A) : Prop :=
  forall fail m, Forall (ev_read_ok R) (rev (wtr (snd (run fail p (w0 m))))).
Lemma C02_from_reads {A} (R : Z -> Prop) (p : prog A) : reads_in R p -> C02_holds R p.
Proof. intros H fail m. apply Forall_rev. apply (run_trace_reads fail R p H (w0 m)). constructor. Qed.

(* C05: handler invocations and return code *)
Definition C05_holds (k : hkind) (p : prog Z) : Prop :=
  forall fail m, let '(r, st) := run fail p (w0 m) in report_post k (handlers (rev (wtr st))) r.
Lemma C05_from_hspec k (p : prog Z) : hspec (report_post k) [] p -> C05_holds k p.
Proof. intros H fail m. apply (hspec_run fail (report_post k) p (w0 m) H). Qed.

(* C12(2): no static object is touched *)
Definition C12_holds {A} (p : prog A) : Prop :=
  forall fail m, existsb is_static (wtr (snd (run fail p (w0 m)))) = false.
Lemma C12_from_no_static {A} (p : prog A) : no_static p -> C12_holds p.
Proof. intros H fail m. apply (run_trace_no_static fail p H (w0 m)). reflexivity. Qed.
