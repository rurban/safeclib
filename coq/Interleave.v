(* Interleave.v -- C12(1): two library calls whose footprints are disjoint and which own no
   static object give, under EVERY interleaving of their atomic steps (sequentially consistent
   memory), the results and memory of running them one after the other. *)
From Coq Require Import List ZArith Lia.
From SC Require Import Base Wp.
Import ListNotations.
Local Open Scope Z_scope.

Definition meq (m1 m2 : mem) : Prop := forall a, m1 a = m2 a.

(* programs of interest allocate nothing and touch no static (the others are C12's known findings) *)
Fixpoint plain {A} (p : prog A) : Prop :=
  match p with
  | Ret _ => True
  | Load _ _ k => forall v, plain (k v)
  | Store _ _ _ k | Fill _ _ _ k | Move _ _ _ k | Handler _ _ k => plain k
  | Alloc _ _ | Free _ _ | Static _ _ => False
  end.

(* memory-only semantics (agrees with [run] on plain programs, see runm_run) *)
Fixpoint runm {A} (p : prog A) (m : mem) : option (A * mem) :=
  match p with
  | Ret a => Some (a, m)
  | Load w a k => runm (k (load m w a)) m
  | Store w a v k => runm k (store m w a v)
  | Fill a n v k => runm k (fill m a n v)
  | Move d s n k => runm k (move m d s n)
  | Handler _ _ k => runm k m
  | _ => None
  end.
(* one atomic step *)
Definition stepm {A} (p : prog A) (m : mem) : prog A * mem :=
  match p with
  | Load w a k => (k (load m w a), m)
  | Store w a v k => (k, store m w a v)
  | Fill a n v k => (k, fill m a n v)
  | Move d s n k => (k, move m d s n)
  | Handler _ _ k => (k, m)
  | _ => (p, m)
  end.
(* schedule: true = left thread steps, false = right thread steps; then both run to completion *)
Fixpoint inter {A B} (s : list bool) (p : prog A) (q : prog B) (m : mem) : option (A * B * mem) :=
  match s with
  | [] => match runm p m with
          | Some (a, m1) => match runm q m1 with Some (b, m2) => Some (a, b, m2) | None => None end
          | None => None
          end
  | true :: s' => let '(p', m') := stepm p m in inter s' p' q m'
  | false :: s' => let '(q', m') := stepm q m in inter s' p q' m'
  end.

(* read / write footprints, for every loaded value *)
Fixpoint fp {A} (R W : Z -> Prop) (p : prog A) : Prop :=
  match p with
  | Ret _ => True
  | Load w a k => range_in R a w /\ forall v, fp R W (k v)
  | Store w a _ k => range_in W a w /\ fp R W k
  | Fill a n _ k => range_in W a n /\ fp R W k
  | Move d s n k => range_in R s n /\ range_in W d n /\ fp R W k
  | Handler _ _ k => fp R W k
  | _ => False
  end.
Lemma fp_from_footprints {A} R W (p : prog A) : plain p -> reads_in R p -> writes_in W p -> fp R W p.
Proof. induction p; cbn; intuition auto. Qed.
Lemma fp_footprints {A} R W (p : prog A) : fp R W p -> plain p /\ reads_in R p /\ writes_in W p.
Proof. induction p; cbn; intuition auto; apply H; auto. Qed.

Lemma plain_bind {A B} (p : prog A) (f : A -> prog B) : plain p -> (forall a, plain (f a)) -> plain (bind p f).
Proof. induction p; cbn; intuition auto. Qed.
Lemma plain_no_static {A} (p : prog A) : plain p -> no_static p.
Proof. induction p; cbn; intuition auto. Qed.
Lemma runm_run {A} (fail : nat -> bool) (p : prog A) : plain p -> forall st,
  runm p (wm st) = Some (fst (run fail p st), wm (snd (run fail p st))).
Proof.
  induction p; cbn; intros Hp st; try contradiction; auto;
    (apply (IHp Hp (mkW _ _ _ _)) || apply (H _ (Hp _) (mkW (wm st) _ _ _))).
Qed.

(* [agree S m1 m2]: the two memories hold the same bytes on S.  What a program with read footprint R does
   depends on the memory on R only; agreement on any S that contains R is preserved by every step. *)
Definition agree (S : Z -> Prop) (m1 m2 : mem) : Prop := forall x, S x -> m1 x = m2 x.

Lemma load_agree S m1 m2 w a : agree S m1 m2 -> range_in S a w -> load m1 w a = load m2 w a.
Proof. intros He Hr. apply load_ext. intros x Hx. apply He, Hr, Hx. Qed.
Lemma store_agree S m1 m2 w a v : agree S m1 m2 -> agree S (store m1 w a v) (store m2 w a v).
Proof. intros He x Hx. unfold store. destruct (in_range a w x); auto. Qed.
Lemma fill_agree S m1 m2 a n v : agree S m1 m2 -> agree S (fill m1 a n v) (fill m2 a n v).
Proof. intros He x Hx. unfold fill. destruct (in_range a n x); auto. Qed.
Lemma move_agree S m1 m2 d s n : agree S m1 m2 -> range_in S s n -> agree S (move m1 d s n) (move m2 d s n).
Proof.
  intros He Hr x Hx. unfold move. destruct (in_rangeP d n x); [apply He, Hr; lia|auto].
Qed.

Section Footprint.
  Context {A : Type} (R W : Z -> Prop).

  Lemma stepm_frame (p : prog A) m x : fp R W p -> ~ W x -> snd (stepm p m) x = m x.
  Proof.
    destruct p; cbn; intros Hf Hx; auto;
      (apply store_out || apply fill_out || apply move_out); intro Hr; apply Hx, Hf, Hr.
  Qed.
  Lemma runm_frame (p : prog A) : fp R W p -> forall m x r n', runm p m = Some (r, n') -> ~ W x -> n' x = m x.
  Proof.
    intros Hf m x r n' E Hx. destruct (fp_footprints R W p Hf) as (Hp & _ & Hw).
    pose proof (eq_trans (eq_sym E) (runm_run nofail p Hp (w0 m))) as F. inversion F.
    apply (run_frame nofail W p Hw (w0 m) x Hx).
  Qed.

  Variable S : Z -> Prop.
  Hypothesis RS : forall x, R x -> S x.
  Lemma stepm_agree (p : prog A) m1 m2 : fp R W p -> agree S m1 m2 ->
    fst (stepm p m1) = fst (stepm p m2) /\ agree S (snd (stepm p m1)) (snd (stepm p m2)).
  Proof.
    destruct p; cbn; intros Hf He; auto.
    - erewrite (load_agree S m1 m2); intuition eauto using range_in_weaken.
    - auto using store_agree.
    - auto using fill_agree.
    - intuition eauto using move_agree, range_in_weaken.
  Qed.
  Lemma runm_agree (p : prog A) : fp R W p -> forall m1 m2, agree S m1 m2 ->
    exists a n1 n2, runm p m1 = Some (a, n1) /\ runm p m2 = Some (a, n2) /\ agree S n1 n2.
  Proof.
    induction p; cbn; intros Hf m1 m2 He; try contradiction.
    - eauto 6.
    - erewrite (load_agree S m1 m2); intuition eauto using range_in_weaken.
    - apply IHp; intuition auto using store_agree.
    - apply IHp; intuition auto using fill_agree.
    - apply IHp; intuition eauto using move_agree, range_in_weaken.
    - auto.
  Qed.
End Footprint.

Lemma runm_stepm {A} (p : prog A) m : runm (fst (stepm p m)) (snd (stepm p m)) = runm p m.
Proof. destruct p; reflexivity. Qed.
Lemma fp_stepm {A} R W (p : prog A) m : fp R W p -> fp R W (fst (stepm p m)).
Proof. destruct p; cbn; intros Hf; auto; apply Hf. Qed.
Lemma fp_runm_some {A} R W (p : prog A) : fp R W p -> forall m, exists r n, runm p m = Some (r, n).
Proof. intros Hf m. destruct (runm_agree R W _ (fun x H => H) p Hf m m (fun x _ => eq_refl)) as (a & n & _ & E & _). eauto. Qed.

Definition decidable_set (W : Z -> Prop) : Prop := forall x, W x \/ ~ W x.
Definition disjoint_fp (Rp Wp Rq Wq : Z -> Prop) : Prop :=
  (forall x, Wq x -> ~ Rp x /\ ~ Wp x) /\ (forall x, Wp x -> ~ Rq x).

(* the diamond: a whole run of p and one step of q, on disjoint footprints, in either order *)
Lemma run_step_commute {A B} Rp Wp Rq Wq (p : prog A) (q : prog B) m a m1 :
  disjoint_fp Rp Wp Rq Wq -> decidable_set Wq -> fp Rp Wp p -> fp Rq Wq q -> runm p m = Some (a, m1) ->
  exists m1', runm p (snd (stepm q m)) = Some (a, m1') /\
              fst (stepm q m) = fst (stepm q m1) /\ meq m1' (snd (stepm q m1)).
Proof.
  intros [D1 D2] Dq Hp Hq E.
  (* p does not see q's step: p reads outside Wq *)
  destruct (runm_agree Rp Wp (fun x => ~ Wq x) (fun x Hr Hw => proj1 (D1 x Hw) Hr) p Hp (snd (stepm q m)) m)
    as (a' & m1' & n & E' & E0 & He). { intros x Hx. apply (stepm_frame Rq Wq q m x Hq Hx). }
  rewrite E in E0. inversion E0; subst a' n. exists m1'. split; [exact E'|].
  (* q's step does not see p's run: q reads outside Wp *)
  destruct (stepm_agree Rq Wq (fun x => ~ Wp x) (fun x Hr Hw => D2 x Hw Hr) q m m1 Hq) as [Eq Hs].
  { intros x Hx. symmetry. apply (runm_frame Rp Wp p Hp m x a m1 E Hx). }
  split; [exact Eq|]. intros x. destruct (Dq x) as [Hw|Hn].
  - assert (Hx : ~ Wp x) by apply (D1 x Hw). rewrite <- (Hs x Hx). apply (runm_frame Rp Wp p Hp _ x a m1' E' Hx).
  - rewrite (He x Hn). symmetry. apply (stepm_frame Rq Wq q m1 x Hq Hn).
Qed.

Theorem inter_seq {A B} Rp Wp Rq Wq (s : list bool) : forall (p : prog A) (q : prog B) m,
  disjoint_fp Rp Wp Rq Wq -> decidable_set Wq -> fp Rp Wp p -> fp Rq Wq q ->
  match inter s p q m, runm p m with
  | Some (a, b, m'), Some (a0, m1) =>
      match runm q m1 with Some (b0, m2) => a = a0 /\ b = b0 /\ meq m' m2 | None => False end
  | _, _ => False
  end.
Proof.
  induction s as [|c s IH]; intros p q m D Dq Hp Hq.
  - cbn. destruct (fp_runm_some _ _ p Hp m) as (a & m1 & E1). rewrite E1.
    destruct (fp_runm_some _ _ q Hq m1) as (b & m2 & E2). rewrite E2. repeat split.
  - destruct c; cbn [inter].
    + rewrite (surjective_pairing (stepm p m)), <- (runm_stepm p m). apply IH; auto. apply fp_stepm, Hp.
    + rewrite (surjective_pairing (stepm q m)).
      specialize (IH p (fst (stepm q m)) (snd (stepm q m)) D Dq Hp (fp_stepm _ _ q m Hq)).
      destruct (fp_runm_some _ _ p Hp m) as (a0 & m1 & E1). rewrite E1.
      destruct (run_step_commute _ _ _ _ p q m a0 m1 D Dq Hp Hq E1) as (m1' & E1' & Eq & Hm).
      rewrite E1', Eq in IH. rewrite Eq, <- (runm_stepm q m1).
      (* the rest of q runs alike from the two equal memories *)
      destruct (runm_agree Rq Wq (fun _ => True) (fun _ _ => I) _ (fp_stepm _ _ q m1 Hq) m1' (snd (stepm q m1)))
        as (b0 & n1 & n2 & F1 & F2 & Hn). { intros x _. apply Hm. }
      rewrite F1 in IH. rewrite F2. destruct (inter s p (fst (stepm q m1)) (snd (stepm q m))) as [[[a b] m']|]; [|exact IH].
      destruct IH as (-> & -> & I3). repeat split. intros x. rewrite I3. apply Hn. exact I.
Qed.
