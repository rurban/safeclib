(* ProofsStr.v -- write and read footprint of strcpy_s (C01, C12), and the region in which the n-variants report
   exactly once (C05). *)
From Coq Require Import ZArith.
From SC Require Import Base Cfg CombProofs ModStr.
Local Open Scope Z_scope.

Global Hint Unfold slen_max_clear : walk.

Lemma strcpy_s_writes c d dmax s destbos : 0 <= dmax -> writes_in (ext d dmax) (strcpy_s c d dmax s destbos).
Proof. intros H0. unfold strcpy_s. walk. Qed.

Lemma strcpy_s_reads_in c d dmax s destbos :
  reads_in (fun a => ext s dmax a \/ ext d dmax a) (strcpy_s c d dmax s destbos).
Proof. unfold strcpy_s. walk. Qed.

(* the n-variants: the probe strnlen_s(dest, dmax) reports a second time when dmax itself exceeds
   RSIZE_MAX_STR (possible only with a known object size), and handle_str_bos_overflow when the known dest
   object size exceeds it; outside these regions: exactly one report. *)
Definition n_region_ok (c : cfg) (dmax slen destbos srcbos : Z) : Prop :=
  dmax <= rmax_str c /\ (srcbos = BOS_UNKNOWN \/ slen <= srcbos \/ destbos = BOS_UNKNOWN \/ 1 <= destbos <= rmax_str c).
