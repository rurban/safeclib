(* Properties_C08.v -- C08: nothing stale behind the terminator. *)
From Coq Require Import ZArith.
From SC Require Import Base Wp Cfg ModStr ModExt SpecStr SpecExt2 PropStr FnProps ModExt2 SpecExt4.
From SC.Gen Require Import Consts.
Local Open Scope Z_scope.

(* link from the wp statements below to executions, whatever the allocation-failure oracle *)
Theorem C08_wp_sound : forall (A : Type) (fail : nat -> bool) (p : prog A) st Q,
  wp p (wm st) Q -> let '(a, st') := run fail p st in Q a (wm st').
Proof. exact (@wp_run). Qed.
Print Assumptions C08_wp_sound.

Theorem C08_strcpy_s : forall (c : cfg) (d dmax s destbos : Z) (m : mem) (L : Z), pre_strcpy_s c d dmax s destbos m L ->
  wp (strcpy_s c d dmax s destbos) m (fun r m' => r = EOK -> slack_clean c 1 m m' d dmax L).
Proof. intros * H. apply (wpr_post (strcpy_s_spec H)). intros r m'. exact outcome_C08. Qed.
Print Assumptions C08_strcpy_s.
Theorem C08_wcscpy_s : forall (c : cfg) (d dmax s destbos : Z) (m : mem) (L g : Z), pre_wcscpy_s c d dmax s destbos m L g ->
  wp (wcscpy_s c d dmax s destbos) m (fun r m' => r = EOK -> slack_clean c (wchar_w c) m m' d dmax L).
Proof. intros * H. apply (wpr_post (wcscpy_s_spec H)). intros r m'. exact outcome_C08. Qed.
Print Assumptions C08_wcscpy_s.
Theorem C08_strncpy_s : forall (c : cfg) (d dmax s slen destbos srcbos : Z) (m : mem) (t : Z), pre_strncpy_s c d dmax s slen destbos srcbos m t ->
  wp (strncpy_s c d dmax s slen destbos srcbos) m (fun r m' => r = EOK -> slack_clean c 1 m m' d dmax t).
Proof. intros * H. apply (wpr_post (strncpy_s_spec H)). intros r m'. exact outcome_C08. Qed.
Print Assumptions C08_strncpy_s.
Theorem C08_strcat_s : forall (c : cfg) (d dmax s destbos : Z) (m : mem) (P L : Z), pre_strcat_s c d dmax s destbos m P L ->
  wp (strcat_s c d dmax s destbos) m (fun r m' => r = EOK -> slack_clean c 1 m m' d dmax (P + L)).
Proof. intros * H. apply (wpr_post (strcat_s_spec H)). intros r m'. exact outcome_C08. Qed.
Print Assumptions C08_strcat_s.
Theorem C08_strncat_s : forall (c : cfg) (d dmax s slen destbos srcbos : Z) (m : mem) (P t : Z), pre_strncat_s c d dmax s slen destbos srcbos m P t ->
  wp (strncat_s c d dmax s slen destbos srcbos) m (fun r m' => r = EOK -> slack_clean c 1 m m' d dmax (P + t)).
Proof. intros * H. apply (wpr_post (strncat_s_spec H)). intros r m'. exact outcome_C08. Qed.
Print Assumptions C08_strncat_s.

(* the set functions: the statements of Properties_C06.v, here for their null-slack part (zeros from the terminator to dmax) *)
Theorem C08_strset_s : forall c d dmax value m, d <> 0 -> 1 <= dmax <= rmax_str c -> 0 <= value <= 255 ->
  wp (strset_s c d dmax value BOS_UNKNOWN) m (set_post c d dmax dmax value m).
Proof. intros. apply strset_s_spec; auto using usable_unknown. Qed.
Print Assumptions C08_strset_s.

Theorem C08_wcsset_s : forall c d dmax value m, wf_cfg c -> d <> 0 -> 1 <= dmax <= rmax_wstr c -> wc_signed value <= UNICODE_MAX ->
  wp (wcsset_s c d dmax value BOS_UNKNOWN) m (wset_post c (wchar_w c) d dmax (value mod 4294967296) m).
Proof. exact wcsset_s_spec. Qed.
Print Assumptions C08_wcsset_s.

Theorem C08_wcsnset_s : forall c d dmax value n m, wf_cfg c -> d <> 0 -> 1 <= dmax <= rmax_wstr c -> wc_signed value <= UNICODE_MAX -> 0 <= n <= dmax ->
  wp (wcsnset_s c d dmax value n BOS_UNKNOWN) m (wnset_post c (wchar_w c) d dmax n (value mod 4294967296) m).
Proof. exact wcsnset_s_spec. Qed.
Print Assumptions C08_wcsnset_s.
Theorem C08_strnset_s : forall c d dmax value n m, d <> 0 -> 1 <= dmax <= rmax_str c -> 0 <= value <= 255 -> 0 <= n <= dmax ->
  wp (strnset_s c d dmax value n BOS_UNKNOWN) m (set_post c d dmax n value m).
Proof. intros. apply strnset_s_spec; auto using usable_unknown. Qed.
Print Assumptions C08_strnset_s.

Theorem C08_cfg_repo_wf : wf_cfg cfg_repo.
Proof. exact wf_cfg_repo. Qed.
Print Assumptions C08_cfg_repo_wf.
