(* ProofsSort7.v -- C16, qsort_s: order of the result for arrays of at most 7 elements, any element type, any comparator
   that reports the order of a key.  By smoothsort_image the run depends on the elements only through the signs of the
   comparisons, and these are the same for the keys and for their competition ranks (rank ks x = how many keys are smaller
   than x).  So it is enough to run the model on the rankings, the lists map (rank ks) ks: one per weak order, 47293 of
   length 7. *)
From Coq Require Import List ZArith Lia Bool Permutation.
From SC Require Import ModSort ProofsSort.
Import ListNotations.
Local Open Scope Z_scope.

Definition rank (ks : list Z) (x : Z) : Z := Z.of_nat (length (filter (fun y => y <? x) ks)).

Lemma rank_mono ks x y : x < y -> rank ks x <= rank ks y /\ (In x ks -> rank ks x < rank ks y).
Proof.
  intros Hxy. unfold rank. induction ks as [|k ks [IH1 IH2]]; cbn [filter length In]; [split; [lia|tauto]|].
  destruct (Z.ltb_spec k x), (Z.ltb_spec k y); cbn [length]; try lia.
  all: split; [lia|]; intros [->|Hx]; [lia|]; specialize (IH2 Hx); lia.
Qed.
Lemma rank_lt ks x y : In x ks -> (rank ks x < rank ks y <-> x < y).
Proof.
  intros Hx. destruct (Z.lt_trichotomy x y) as [H|[->|H]].
  - pose proof (rank_mono ks x y H). tauto.
  - lia.
  - pose proof (rank_mono ks y x H). lia.
Qed.
Lemma rank_le ks x y : In y ks -> (rank ks x <= rank ks y <-> x <= y).
Proof. intros Hy. pose proof (rank_lt ks y x Hy). lia. Qed.
Lemma rank_bound ks x : 0 <= rank ks x <= Z.of_nat (length ks).
Proof.
  unfold rank. induction ks as [|k ks IH]; cbn [filter length]; [lia|]. destruct (k <? x); cbn [length]; lia.
Qed.
Lemma rank_map g ks x : (forall z, In z ks -> (g z < g x <-> z < x)) -> rank (map g ks) (g x) = rank ks x.
Proof.
  intros H. unfold rank. f_equal. induction ks as [|k ks IH]; [reflexivity|]. cbn [map filter].
  pose proof (H k (or_introl eq_refl)). specialize (IH (fun z Hz => H z (or_intror Hz))).
  destruct (Z.ltb_spec (g k) (g x)), (Z.ltb_spec k x); cbn [length]; lia.
Qed.
Lemma rank_canon ks x : rank (map (rank ks) ks) (rank ks x) = rank ks x.
Proof. apply rank_map. intros z Hz. apply rank_lt, Hz. Qed.

(* the ranking of x :: t from that of t: x takes its rank r in t; the ranks above r move up by one, and so does
   r itself unless x ties with an element of t *)
Definition ins (up : Z -> Z -> bool) (r : Z) (c : list Z) : list Z := r :: map (fun v => if up r v then v + 1 else v) c.
Lemma ranking_cons x t :
  map (rank (x :: t)) (x :: t) = ins (if in_dec Z.eq_dec x t then Z.ltb else Z.leb) (rank t x) (map (rank t) t).
Proof.
  assert (R : forall y, rank (x :: t) y = rank t y + (if x <? y then 1 else 0)).
  { intros y. unfold rank. cbn [filter]. destruct (x <? y); cbn [length]; lia. }
  unfold ins. cbn [map]. rewrite R, Z.ltb_irrefl, Z.add_0_r, map_map. f_equal. apply map_ext_in. intros y Hy. rewrite R.
  pose proof (rank_lt t y x Hy). destruct (in_dec Z.eq_dec x t) as [Hx|Hx].
  - pose proof (rank_lt t x y Hx). destruct (Z.ltb_spec x y), (Z.ltb_spec (rank t x) (rank t y)); lia.
  - assert (x <> y) by congruence. destruct (Z.ltb_spec x y), (Z.leb_spec (rank t x) (rank t y)); lia.
Qed.

(* every ranking of length n' extended by every candidate rank r, as a tie and as a new key; the two tests only prune
   (a tie needs r in c; a new key has its own rank in c, rank_canon): completeness needs them no sharper *)
Fixpoint rankings (n : nat) : list (list Z) :=
  match n with
  | O => [[]]
  | S n' => flat_map (fun c => flat_map (fun r =>
              (if in_dec Z.eq_dec r c then [ins Z.ltb r c] else []) ++ (if rank c r =? r then [ins Z.leb r c] else []))
              (map Z.of_nat (seq 0 (S n')))) (rankings n')
  end.
Lemma rankings_complete ks : In (map (rank ks) ks) (rankings (length ks)).
Proof.
  induction ks as [|x t IH]; [left; reflexivity|]. rewrite ranking_cons. cbn [length rankings].
  apply in_flat_map. exists (map (rank t) t). split; [exact IH|]. apply in_flat_map. exists (rank t x). split.
  - pose proof (rank_bound t x). apply in_map_iff. exists (Z.to_nat (rank t x)). split; [lia|apply in_seq; lia].
  - apply in_or_app. destruct (in_dec Z.eq_dec x t) as [Hx|_].
    + left. destruct (in_dec _ _ _) as [_|N]; [left; reflexivity|]. destruct N. apply in_map, Hx.
    + right. rewrite rank_canon, Z.eqb_refl. left; reflexivity.
Qed.

Definition sorts_ok (ks : list Z) : bool :=
  match smoothsort Z zcmp ks with Some (l', _) => sortedb l' | None => false end.
Lemma check_upto7 : forallb (fun n => forallb sorts_ok (rankings n)) (seq 0 8) = true.
Proof. vm_compute. reflexivity. Qed.
Lemma sorts_ranking ks : (length ks <= 7)%nat -> sorts_ok (map (rank ks) ks) = true.
Proof.
  intros H. pose proof check_upto7 as C. rewrite forallb_forall in C. specialize (C (length ks)). rewrite forallb_forall in C.
  apply C; [apply in_seq; lia|apply rankings_complete].
Qed.

Lemma sortedb_transfer (A : Type) (g key : A -> Z) (l : list A) :
  (forall a b, In a l -> In b l -> g a <= g b -> key a <= key b) -> sortedb (map g l) = true -> sortedb (map key l) = true.
Proof.
  induction l as [|a [|b r] IH]; intros H S; try reflexivity.
  cbn [map sortedb] in *. rewrite andb_true_iff, Z.leb_le in *. destruct S as [S1 S2]. split.
  - apply H; cbn; auto.
  - apply IH; [|exact S2]. intros x y Hx Hy. apply H; right; assumption.
Qed.

Theorem smoothsort_sorted_small (A : Type) (cmp : A -> A -> Z) (key : A -> Z) (l : list A) :
  (forall a b, In a l -> In b l -> (0 <= cmp a b <-> key b <= key a) /\ (cmp a b <= 0 <-> key a <= key b)) ->
  (length l <= 7)%nat ->
  exists l' tr, smoothsort A cmp l = Some (l', tr) /\ Permutation l l' /\ sortedb (map key l') = true.
Proof.
  intros Hcmp Hlen. pose proof (sorts_ranking (map key l)) as Hok. rewrite map_length, map_map in Hok. specialize (Hok Hlen).
  set (g := fun a => rank (map key l) (key a)) in *.
  assert (Hg : forall a b, In b l -> (g a <= g b <-> key a <= key b)) by (intros a b Hb; apply rank_le, in_map, Hb).
  destruct (smoothsort_image A Z cmp zcmp g l) as (l' & tr & E & M & P).
  { intros a b Ha Hb. destruct (Hcmp a b Ha Hb), (zcmp_spec (g a) (g b)). pose proof (Hg a b Hb). pose proof (Hg b a Ha).
    rewrite !Z.geb_leb. split; apply eq_true_iff_eq; rewrite !Z.leb_le; tauto. }
  exists l', tr. split; [exact E|]. split; [exact P|]. unfold sorts_ok in Hok. rewrite M in Hok.
  apply sortedb_transfer with (g := g); [|exact Hok].
  intros a b _ Hb. apply Hg. eapply Permutation_in; [symmetry; exact P|exact Hb].
Qed.
