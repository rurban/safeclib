(* Properties_C14.v -- C14: tokenising.
   Proved: store footprint of the two loops (only *ptr, *dmaxp and the string, up to and including the element at index dmax:
   known finding tok-unterminated-writes-dest-dmax) and the handler discipline of every call; and (C14_strtok_s_sequence,
   C14_wcstok_s_sequence) the functional statement: a call sequence on a terminated string with dmax > strlen, one non-empty
   delimiter list (<= STRTOK_DELIM_MAX_LEN) per call, returns exactly the reference sequence SpecTok.ref_seq, every token a
   terminated string inside [str, str+dmax), and no byte changes outside *ptr, *dmaxp and the string (that only consumed
   delimiters are overwritten is said per call of the loop: C14_tok_call).  C14_ref_seq_is_tokens: for a constant delimiter
   set and at least as many calls as tokens the reference is the textbook "maximal delimiter-free substrings".  Excluded by
   the hypotheses (known findings): empty delimiter list, unterminated string, dmax = strlen exactly. *)
From Coq Require Import List ZArith Lia.
From SC Require Import Base Wp Cfg CombProofs ModTok ProofsTok PropDefs SpecTok ProofsTokSeq.
From SC.Gen Require Import Consts.
Import ListNotations.
Local Open Scope Z_scope.

Theorem C14_tokskip_stores : forall c w wide dmaxp ptr delim n d, 0 < w ->
  C01_holds (tokP w dmaxp ptr d n) (tokskip c w wide dmaxp ptr delim n d).
Proof. intros. apply C01_from_writes. auto with walk. Qed.
Print Assumptions C14_tokskip_stores.
Theorem C14_tokend_stores : forall c w dmaxp ptr delim n d tok, 0 < w ->
  C01_holds (tokP w dmaxp ptr d n) (tokend c w dmaxp ptr delim n d tok).
Proof. intros. apply C01_from_writes. auto with walk. Qed.
Print Assumptions C14_tokend_stores.
Theorem C14_strtok_s_reports : forall c dest dmaxp delim ptr destbos, hspec tok_report [] (strtok_s c dest dmaxp delim ptr destbos).
Proof. intros. unfold strtok_s. walk. Qed.
Print Assumptions C14_strtok_s_reports.
Theorem C14_wcstok_s_reports : forall c dest dmaxp delim ptr destbos, hspec tok_report [] (wcstok_s c dest dmaxp delim ptr destbos).
Proof. intros. unfold wcstok_s. walk. Qed.
Print Assumptions C14_wcstok_s_reports.
(* the configuration generated from /repo meets what the theorems ask of c (0 < wchar_w c) *)
Theorem C14_cfg_repo_wf : wf_cfg cfg_repo.
Proof. exact wf_cfg_repo. Qed.
(* non-vacuity / regression: "a,b" with delimiter "," yields a, b, then null pointers; per call (ModTok.tok_seq): token offset,
   *dmaxp, offset of *ptr, -1 for NULL; the delimiter list of call i stands at 2000 + 24 * i *)
Example C14_example :
  let m := fun a => if a =? 1000 then 97 else if a =? 1001 then 44 else if a =? 1002 then 98 else
                    if a =? 2000 then 44 else if a =? 2024 then 44 else if a =? 2048 then 44 else if a =? 2072 then 44 else 0 in
  fst (fst (exec (strtok_seq cfg_default 1000 4 4 2000 3000 BOS_UNKNOWN) m)) = [0; 2; 2; 2; 1; 3; -1; 1; 3; -1; 1; 3].
Proof. vm_compute. reflexivity. Qed.

Theorem C14_strtok_s_sequence : forall c dmaxp ptr lo hi nmax bos,
  0 < lo -> hi < 256 ^ 8 -> (ptr + 8 <= lo \/ hi <= ptr) -> (dmaxp + 8 <= lo \/ hi <= dmaxp) ->
  (ptr + 8 <= dmaxp \/ dmaxp + 8 <= ptr) -> ptr <> 0 -> dmaxp <> 0 ->
  nmax <= rmax_str c -> (bos = BOS_UNKNOWN \/ nmax <= bos) ->
  forall dps m p n s,
  Forall (delim_ok 1 dmaxp ptr lo hi (tok_delim_max c) m) dps ->
  tok_state0 1 dmaxp lo hi nmax m p n s ->
  wp (strtok_calls c dmaxp ptr bos p (map fst dps)) m (fun rs m' =>
    (forall x, ~ cell ptr x -> ~ cell dmaxp x -> ~ (p <= x < p + zlen s * 1) -> m' x = m x) /\
    Forall2 (tok_res 1 hi m' p) rs (ref_seq (map snd dps) s)).
Proof. exact strtok_s_sequence. Qed.
Print Assumptions C14_strtok_s_sequence.
Theorem C14_wcstok_s_sequence : forall c dmaxp ptr lo hi nmax bos,
  0 < lo -> hi < 256 ^ 8 -> (ptr + 8 <= lo \/ hi <= ptr) -> (dmaxp + 8 <= lo \/ hi <= dmaxp) ->
  (ptr + 8 <= dmaxp \/ dmaxp + 8 <= ptr) -> ptr <> 0 -> dmaxp <> 0 ->
  0 < wchar_w c -> nmax <= rmax_wstr c -> (bos = BOS_UNKNOWN \/ nmax * wchar_w c <= bos) ->
  forall dps m p n s,
  Forall (delim_ok (wchar_w c) dmaxp ptr lo hi (tok_delim_max c) m) dps ->
  tok_state0 (wchar_w c) dmaxp lo hi nmax m p n s ->
  wp (wcstok_calls c dmaxp ptr bos p (map fst dps)) m (fun rs m' =>
    (forall x, ~ cell ptr x -> ~ cell dmaxp x -> ~ (p <= x < p + zlen s * wchar_w c) -> m' x = m x) /\
    Forall2 (tok_res (wchar_w c) hi m' p) rs (ref_seq (map snd dps) s)).
Proof. exact wcstok_s_sequence. Qed.
Print Assumptions C14_wcstok_s_sequence.
(* one call, from the loop tokskip that strtok_s / wcstok_s enter after their checks: result, terminated token inside the buffer, the caller state for the next call
   (p' + n' elements end exactly at the original end: the remaining length never reaches past dmax) *)
Theorem C14_tok_call : forall c w wide dmaxp ptr, 0 < w -> forall lo hi, 0 <= lo -> hi < 256 ^ 8 ->
  (ptr + 8 <= lo \/ hi <= ptr) -> (dmaxp + 8 <= lo \/ hi <= dmaxp) -> (ptr + 8 <= dmaxp \/ dmaxp + 8 <= ptr) ->
  forall nmax dl delim m p n s,
  chars_ok dl -> (length dl <= Z.to_nat (tok_delim_max c))%nat -> nonempty dl = true ->
  str_at w m delim dl -> tok_state0 w dmaxp lo hi nmax m p n s ->
  wp (tokskip c w wide dmaxp ptr delim n p) m (tok_post w dmaxp ptr lo hi nmax dl m p n s).
Proof. exact tok_call_spec. Qed.
Print Assumptions C14_tok_call.
Theorem C14_ref_seq_is_tokens : forall dl k s, (length (tokens dl s) <= k)%nat ->
  ref_seq (repeat dl k) s = map Some (tokens dl s) ++ repeat None (k - length (tokens dl s)).
Proof. exact ref_seq_const. Qed.
Print Assumptions C14_ref_seq_is_tokens.
Theorem C14_sequence_constant_delims : forall w hi m' p dl k s rs, (length (tokens dl s) <= k)%nat ->
  Forall2 (tok_res w hi m' p) rs (ref_seq (repeat dl k) s) ->
  exists toks nulls, rs = toks ++ nulls /\
    Forall2 (fun r tok => p <= r /\ r + (zlen tok + 1) * w <= hi /\ str_at w m' r tok) toks (tokens dl s) /\
    Forall (fun r => r = 0) nulls /\ length nulls = (k - length (tokens dl s))%nat.
Proof.
  intros w hi m' p dl k s rs Hk HF. rewrite ref_seq_const in HF by exact Hk.
  apply Forall2_app_inv_r in HF. destruct HF as (toks & nulls & H1 & H2 & ->).
  exists toks, nulls. split; [reflexivity|]. split; [apply tok_res_somes, H1|]. split; [eapply tok_res_nones, H2|].
  apply Forall2_length in H2. now rewrite repeat_length in H2.
Qed.
Print Assumptions C14_sequence_constant_delims.
(* C02 for the tokeniser: on a terminated string a continuation call loads only the two cells, the rest of the string with its
   terminator and the delimiter list with its terminator -- nothing at or beyond the original dest[dmax] *)
Theorem C14_strtok_s_reads : forall c dmaxp ptr delim dl bos m p n s,
  dmaxp <> 0 -> ptr <> 0 -> delim <> 0 -> p <> 0 -> chars_ok dl -> (length dl <= Z.to_nat (tok_delim_max c))%nat ->
  str_at 1 m delim dl -> str_at 1 m p s -> chars_ok s -> (length s < n)%nat ->
  load m 8 dmaxp = Z.of_nat n -> load m 8 ptr = p -> Z.of_nat n <= rmax_str c ->
  reads_ok (fun x => dmaxp <= x < dmaxp + 8 \/ ptr <= x < ptr + 8 \/ p <= x < p + (zlen s + 1) \/ delim <= x < delim + (zlen dl + 1))
           (strtok_s c 0 dmaxp delim ptr bos) m.
Proof.
  intros c dmaxp ptr delim dl bos m p n s H1 H2 H3 H4 Hdl Hdn Hd Hs Hc Hn Hdm Hp Hmx.
  apply (wpr_reads (Q := fun _ _ => True)).
  apply strtok_s_enter with (p := p) (n := n); auto; try (intros x Hx; lia); [repeat split; auto; lia|].
  apply tokskip_wp with (dl := dl) (s := s); auto; try lia; try (split; [|split]; auto; intros x Hx; lia).
  destruct (if nonempty dl then ref_call dl s else None) as [[[[sk tok] rest] b]|]; intros; exact I.
Qed.
Print Assumptions C14_strtok_s_reads.
(* the hypotheses are satisfiable: "a,b" at 1000 with dmax 4, *dmaxp at 3000, *ptr at 3008, "," at 2000 *)
Example C14_sequence_hyps_satisfiable :
  let m := fun a => if a =? 1000 then 97 else if a =? 1001 then 44 else if a =? 1002 then 98 else
                    if a =? 2000 then 44 else if a =? 3000 then 4 else 0 in
  tok_state0 1 3000 1000 1004 4096 m 1000 4 [97; 44; 98] /\ delim_ok 1 3000 3008 1000 1004 16 m (2000, [44]) /\
  tokens [44] [97; 44; 98] = [[97]; [98]].
Proof.
  cbv zeta. split; [|split; [|reflexivity]].
  - constructor; try reflexivity; try (cbn; lia).
    + repeat (apply str_at_cons; split; [reflexivity|]). now apply str_at_nil.
    + repeat constructor; discriminate.
  - unfold delim_ok. cbn [fst snd]. change (zlen [44]) with 1.
    split; [lia|]. split; [repeat constructor; discriminate|]. split; [cbn; lia|]. split; [reflexivity|]. split; [|lia].
    apply str_at_cons. split; [reflexivity|]. now apply str_at_nil.
Qed.
