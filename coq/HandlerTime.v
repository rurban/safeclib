(* HandlerTime.v -- what the runtime-constraint handler finds when it is invoked (C15: "invalid sequences are reported as errors
   with dest cleared"; a handler need not return, K.3.6.1.1, so the state at the moment of the report is what such a handler
   leaves).  [at_handler H p m]: at every Handler node the execution of p from m reaches, H holds of the memory at that moment
   (the recursion of Wp.wp; a trace of Base.run carries no memory, so there is no statement about run behind it). *)
From Coq Require Import ZArith Lia.
From SC Require Import Base Wp Cfg Comb ModConv ProofsConv.
Local Open Scope Z_scope.
Local Open Scope prog_scope.

Fixpoint at_handler {A} (H : mem -> Prop) (p : prog A) (m : mem) : Prop :=
  match p with
  | Ret _ => True
  | Load w a k => at_handler H (k (load m w a)) m
  | Store w a v k => at_handler H k (store m w a v)
  | Fill a n v k => at_handler H k (fill m a n v)
  | Move d s n k => at_handler H k (move m d s n)
  | Handler _ _ k => H m /\ at_handler H k m
  | Free _ k | Static _ k => at_handler H k m
  | Alloc _ k => forall r, at_handler H (k r) m
  end.

Lemma at_handler_bind {A B} (H : mem -> Prop) (p : prog A) (f : A -> prog B) : forall m,
  at_handler H p m -> wp p m (fun a m' => at_handler H (f a) m') -> at_handler H (bind p f) m.
Proof.
  induction p; cbn; intros m Hp Hw; auto.
  - destruct Hp as [H0 Hp]. split; [exact H0|]. apply IHp; assumption.
Qed.

Lemma handle_error_clears_first c w d dmax code m : 0 < w -> 0 < dmax ->
  at_handler (fun m' => load m' w d = 0 /\ (null_slack c = true -> forall a, d <= a < d + dmax * w -> m' a = 0))
             (handle_error c w d dmax code) m.
Proof.
  intros Hw Hd. unfold handle_error. destruct (null_slack c) eqn:E; cbn.
  - split; [|exact I]. split.
    + apply load_fill_zero; nia.
    + intros _ a Ha. rewrite fill_in by exact Ha. reflexivity.
  - split; [|exact I]. split; [|discriminate].
    rewrite load_store_same by lia. apply Z.mod_0_l. apply Z.pow_nonzero; lia.
Qed.

Lemma handle_mem_error_clears_first d dmax code m :
  at_handler (fun m' => forall a, d <= a < d + dmax -> m' a = 0) (handle_mem_error d dmax code) m.
Proof. unfold handle_mem_error. cbn. split; [|exact I]. intros a Ha. rewrite fill_in by exact Ha. reflexivity. Qed.

Lemma at_handler_weaken {A} (H H' : mem -> Prop) (p : prog A) : (forall m, H m -> H' m) -> forall m, at_handler H p m -> at_handler H' p m.
Proof. intros HH. induction p; cbn; intros m Hp; auto. destruct Hp as [H0 Hp]. split; auto. Qed.

Lemma at_handler_no_handler {A} (H : mem -> Prop) (p : prog A) : no_handler p -> forall m, at_handler H p m.
Proof. induction p; cbn; intros Hn m; auto. contradiction. Qed.
Lemma store_bytes_noh l : forall p k, no_handler k -> no_handler (store_bytes p l k).
Proof. induction l as [|b t IH]; intros p k Hk; cbn [store_bytes no_handler]; auto. Qed.

Definition dest_cleared (c : cfg) (dest dmax : Z) (m : mem) : Prop :=
  m dest = 0 /\ (null_slack c = true -> forall a, dest <= a < dest + dmax -> m a = 0).

Lemma handle_error1_cleared c dest dmax rc m : 0 < dmax -> at_handler (dest_cleared c dest dmax) (handle_error c 1 dest dmax rc ;;; Ret rc) m.
Proof.
  intros Hd. apply at_handler_bind.
  - eapply at_handler_weaken; [|apply handle_error_clears_first; lia].
    intros m' [H1 H2]. split; [rewrite load1 in H1; exact H1|]. intros E a Ha. apply H2; [exact E|lia].
  - unfold handle_error. destruct (null_slack c); cbn; exact I.
Qed.

Lemma deliver_reports_cleared c dest dmax bs len term fits rc m : dest <> 0 -> 0 < dmax ->
  at_handler (dest_cleared c dest dmax) (deliver c dest dmax bs len term fits rc) m.
Proof.
  intros Hd H0. unfold deliver. replace (dest =? 0) with false by lia. destruct fits; [|apply handle_error1_cleared; exact H0].
  apply at_handler_no_handler, store_bytes_noh. destruct (null_slack c); [|destruct term]; exact I.
Qed.

(* non-vacuity: an unencodable character in the C locale does reach the report *)
Example wctomb_s_report_reached : exists c, at_handler (fun _ => True) (wctomb_s c false 8 64 4 233 BOS_UNKNOWN) (fun _ => 90)
  /\ ~ at_handler (fun _ => False) (wctomb_s c false 8 64 4 233 BOS_UNKNOWN) (fun _ => 90).
Proof.
  exists (mkCfg true 4096 4096 1024 4096 4096 16 4). split.
  - vm_compute. tauto.
  - vm_compute. tauto.
Qed.
