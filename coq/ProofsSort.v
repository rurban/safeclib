(* ProofsSort.v -- C16, qsort_s: the smoothsort model of ModSort.v.  One theorem carries the rest (smoothsort_run, section
   Run); the Leonardo-forest bookkeeping (p, pshift) is the invariant that keeps every element index (comparator operands,
   rotation slots) inside [0, n).  From it, for every input and comparator: no access outside nmemb*size bytes
   (smoothsort_total), a permutation of the input (smoothsort_perm), dependence on the elements only through the signs the
   comparator reports (smoothsort_map).  Order of the result: ProofsSort7.v. *)
From Coq Require Import List ZArith Lia Bool Permutation.
From SC Require Import ModSort.
Import ListNotations.
Local Open Scope Z_scope.

Lemma leo_0 : leo 0 = 1. Proof. reflexivity. Qed.
Lemma leo_1 : leo 1 = 1. Proof. reflexivity. Qed.
Lemma leo_SS k : leo (S (S k)) = leo (S k) + leo k + 1.
Proof. unfold leo. cbn [leop]. destruct (leop k). cbn [fst]. lia. Qed.
Lemma leo_pos k : 1 <= leo k.
Proof.
  assert (H : 1 <= leo k /\ 1 <= leo (S k)).
  { induction k as [|k [IH1 IH2]]; [rewrite leo_0, leo_1; lia|]. split; [exact IH2|rewrite leo_SS; lia]. }
  apply H.
Qed.
Lemma leo_ge3 k : 3 <= leo (S (S k)).
Proof. rewrite leo_SS. pose proof (leo_pos k). pose proof (leo_pos (S k)). lia. Qed.

(* total size of the trees: bit i of p set <-> a tree of order pshift + i is present *)
Fixpoint fsum (p : bits) (s : nat) : Z :=
  match p with [] => 0 | b :: r => (if b then leo s else 0) + fsum r (S s) end.

Lemma fsum_nonneg p : forall s, 0 <= fsum p s.
Proof. induction p as [|b r IH]; intros s; cbn [fsum]; [lia|]. pose proof (IH (S s)). pose proof (leo_pos s). destruct b; lia. Qed.
Lemma fsum_zero p : forall s, fsum p s = 0 <-> forallb negb p = true.
Proof.
  induction p as [|b r IH]; intros s; cbn [fsum forallb]; [tauto|]. rewrite andb_true_iff, <- (IH (S s)).
  pose proof (fsum_nonneg r (S s)). pose proof (leo_pos s). destruct b; cbn [negb]; [split; [lia|intros [? _]; discriminate]|tauto].
Qed.
Lemma is_one_true_fsum p s : is_one p = true -> fsum p s = leo s.
Proof. destruct p as [|[|] r]; cbn; try discriminate. intros H. apply (fsum_zero r (S s)) in H. lia. Qed.
(* shifting out the smallest tree (bit 0) and the empty orders above it *)
Lemma shr_pntz p s : bit0 p = true -> is_one p = false ->
  bit0 (shr p (pntz p)) = true /\ leo s + fsum (shr p (pntz p)) (s + pntz p) = fsum p s
  /\ (length (shr p (pntz p)) < length p)%nat /\ (0 < pntz p)%nat.
Proof.
  destruct p as [|b r]; [discriminate|]. cbn [bit0 is_one pntz]. intros -> H.
  (* r has a set bit, at k say: skipping the k empty orders below it keeps the sum and leaves that bit first *)
  assert (F : forall s, exists k, first_set r = Some k /\ bit0 (skipn k r) = true
              /\ fsum (skipn k r) (s + k) = fsum r s /\ (length (skipn k r) <= length r)%nat).
  { clear s. induction r as [|b r IH]; intros s; [discriminate|]. cbn [first_set]. destruct b.
    - exists O. rewrite Nat.add_0_r. auto.
    - destruct (IH H (S s)) as (k & -> & B & F & L). exists (S k). cbn [option_map skipn fsum length].
      rewrite Nat.add_succ_r. auto with zarith. }
  destruct (F (S s)) as (k & -> & B & F' & L). unfold shr. cbn [skipn fsum length]. rewrite Nat.add_succ_r. auto with zarith.
Qed.

(* The sort is run on an array l with comparator cmpA and on an array m with comparator cmpB, related by R: inside
   [0, n) comparisons of l and m are defined and agree in sign, and rotating the same slots in both keeps them related.
   Then both runs complete, make the same comparator calls and leave related arrays.  R is instantiated once, with
   "m is the image of l, and l a permutation of the input" (smoothsort_image). *)
Section Run.
  Variables A B : Type.
  Variable cmpA : A -> A -> Z.
  Variable cmpB : B -> B -> Z.
  Variable n : Z.
  Variable R : list A -> list B -> Prop.
  Definition inside (i : Z) : Prop := 0 <= i < n.
  Definition same_sign (c c' : Z) : Prop := (c >=? 0) = (c' >=? 0) /\ (c <=? 0) = (c' <=? 0).
  Hypothesis R_cmp : forall l m i j, R l m -> inside i -> inside j ->
    exists c c', cmp_at A cmpA l i j = Some c /\ cmp_at B cmpB m i j = Some c' /\ same_sign c c'.
  Hypothesis R_cycle : forall l m ar, R l m -> Forall inside ar ->
    exists l' m', cycle A l ar = Some l' /\ cycle B m ar = Some m' /\ R l' m'.

  Definition both {X} (P : X -> Prop) (o o' : option X) : Prop := exists x, o = Some x /\ o' = Some x /\ P x.
  Lemma both_refl {X} (P : X -> Prop) x : P x -> both P (Some x) (Some x).
  Proof. intros H. exists x. auto. Qed.
  Definition runs (o : option (list A * trace)) (o' : option (list B * trace)) : Prop :=
    exists l' m' tr', o = Some (l', tr') /\ o' = Some (m', tr') /\ R l' m'.
  Lemma runs_if (b : bool) o1 o1' o2 o2' : runs o1 o1' -> runs o2 o2' -> runs (if b then o1 else o2) (if b then o1' else o2').
  Proof. destruct b; auto. Qed.

  (* the tree of order s rooted at head, which occupies (head - leo s, head], lies inside the array *)
  Definition fits (head : Z) (s : nat) : Prop := inside head /\ leo s <= head + 1.
  Lemma fits_children head q : fits head (S (S q)) -> fits (head - 1 - leo q) (S q) /\ fits (head - 1) q.
  Proof. unfold fits, inside. rewrite leo_SS. pose proof (leo_pos q). pose proof (leo_pos (S q)). lia. Qed.

  Lemma sift_path_run l m : R l m -> forall pshift root head acc tr,
    inside root -> fits head pshift -> Forall inside acc ->
    both (fun x => Forall inside (fst x))
      (sift_path A cmpA l root head pshift acc tr) (sift_path B cmpB m root head pshift acc tr).
  Proof.
    intros HR pshift. induction pshift as [pshift IH] using (well_founded_induction lt_wf).
    intros root head acc tr Hroot Hfit Hacc.
    destruct pshift as [|p1]; cbn [sift_path]; [|destruct p1 as [|q]]; try (apply both_refl, Forall_rev, Hacc).
    destruct (fits_children head q Hfit) as [Flf Frt]. pose proof (proj1 Flf) as Hlf. pose proof (proj1 Frt) as Hrt.
    destruct (R_cmp l m _ _ HR Hroot Hlf) as (c1 & c1' & -> & -> & [<- _]).
    destruct (R_cmp l m _ _ HR Hroot Hrt) as (c2 & c2' & -> & -> & [<- _]).
    destruct (R_cmp l m _ _ HR Hlf Hrt) as (c3 & c3' & -> & -> & [<- _]).
    destruct (c1 >=? 0); [destruct (c2 >=? 0); [apply both_refl, Forall_rev, Hacc|]|].
    all: destruct (c3 >=? 0); (apply IH; [lia|exact Hroot|assumption|constructor; assumption]).
  Qed.
  Lemma sift_run l m head pshift tr : R l m -> fits head pshift ->
    runs (sift A cmpA l head pshift tr) (sift B cmpB m head pshift tr).
  Proof.
    intros HR Hfit. unfold sift. pose proof (proj1 Hfit).
    destruct (sift_path_run l m HR pshift head head [head] tr) as ([ar tr'] & -> & -> & Har); auto.
    destruct (R_cycle l m ar HR Har) as (l' & m' & -> & -> & HR'). exists l', m', tr'. auto.
  Qed.

  (* the forest (p, pshift) ends at head: bit 0 is the tree rooted at head *)
  Definition WF (head : Z) (p : bits) (s : nat) : Prop := bit0 p = true /\ fsum p s = head + 1 /\ head < n.
  Lemma WF_fit head p s : WF head p s -> fits head s.
  Proof.
    intros (B0 & F & H). destruct p as [|[] r]; try discriminate. cbn [fsum] in F.
    pose proof (fsum_nonneg r (S s)). pose proof (leo_pos s). unfold fits, inside. lia.
  Qed.
  (* the stepson: the root of the next tree of the forest *)
  Lemma WF_pop head p s : WF head p s -> is_one p = false ->
    WF (head - leo s) (shr p (pntz p)) (s + pntz p) /\ (length (shr p (pntz p)) < length p)%nat /\ (0 < pntz p)%nat.
  Proof.
    intros (B0 & F & H) E. destruct (shr_pntz p s B0 E) as (B' & F' & L & K). pose proof (leo_pos s).
    split; [|split; assumption]. split; [exact B'|]. split; lia.
  Qed.
  (* the tree at head is split into its two children, each the last tree of the forest in turn *)
  Lemma WF_split head p q : WF head p (S (S q)) -> let p1 := shr (xor7 (shl p 2)) 1 in
    WF (head - leo q - 1) p1 (S q) /\ WF (head - 1) (set0 (shl p1 1)) q /\ bit1 (set0 (shl p1 1)) = true.
  Proof.
    intros (B0 & F & H). destruct p as [|[] r]; try discriminate. cbn [fsum] in F. rewrite leo_SS in F.
    pose proof (leo_pos q). unfold WF. cbn. lia.
  Qed.

  Lemma trinkle_path_run l m : R l m -> forall fuel root head p pshift trusty acc tr,
    (length p < fuel)%nat -> inside root -> WF head p pshift -> Forall inside acc ->
    both (fun '(ar, head', ps', _, _) => Forall inside ar /\ fits head' ps')
      (trinkle_path A cmpA fuel l root head p pshift trusty acc tr) (trinkle_path B cmpB fuel m root head p pshift trusty acc tr).
  Proof.
    intros HR fuel. induction fuel as [|f IH]; intros root head p pshift trusty acc tr Hf Hroot Hwf Hacc; [lia|].
    cbn [trinkle_path]. pose proof (WF_fit _ _ _ Hwf) as Hfit. apply Forall_rev in Hacc as Hrev.
    destruct (is_one p) eqn:E1; [apply both_refl; auto|].
    destruct (WF_pop _ _ _ Hwf E1) as (Hwf' & Hlen & _). destruct (WF_fit _ _ _ Hwf') as [Hstep _].
    destruct (R_cmp l m _ _ HR Hstep Hroot) as (c1 & c1' & -> & -> & [_ <-]). destruct (c1 <=? 0); [apply both_refl; auto|].
    destruct (negb trusty && (1 <? Z.of_nat pshift)) eqn:E2; [|apply IH; [lia|exact Hroot|exact Hwf'|constructor; assumption]].
    apply andb_true_iff in E2 as [_ E2%Z.ltb_lt]. destruct pshift as [|[|q]]; try lia. replace (S (S q) - 2)%nat with q by lia.
    destruct (fits_children head q Hfit) as [[Hlf _] [Hrt _]].
    destruct (R_cmp l m _ _ HR Hrt Hstep) as (c2 & c2' & -> & -> & [<- _]). destruct (c2 >=? 0); [apply both_refl; auto|].
    destruct (R_cmp l m _ _ HR Hlf Hstep) as (c3 & c3' & -> & -> & [<- _]). destruct (c3 >=? 0); [apply both_refl; auto|apply IH; [lia|exact Hroot|exact Hwf'|constructor; assumption]].
  Qed.
  Lemma trinkle_run l m head p pshift trusty tr : R l m -> WF head p pshift ->
    runs (trinkle A cmpA l head p pshift trusty tr) (trinkle B cmpB m head p pshift trusty tr).
  Proof.
    intros HR Hwf. unfold trinkle. destruct (WF_fit _ _ _ Hwf) as [Hh _].
    destruct (trinkle_path_run l m HR (S (length p)) head head p pshift trusty [head] tr)
      as ([[[[ar h'] ps'] t'] tr'] & -> & -> & Har & Hfit'); auto.
    destruct t'; [exists l, m, tr'; auto|].
    destruct (R_cycle l m ar HR Har) as (l' & m' & -> & -> & HR'). apply sift_run; assumption.
  Qed.

  (* the first loop: at most the two smallest trees have consecutive orders *)
  Fixpoint noadj (p : bits) : bool :=
    match p with a :: r => match r with b :: _ => negb (a && b) && noadj r | [] => true end | [] => true end.
  Definition Binv (head : Z) (p : bits) (s : nat) : Prop :=
    WF head p s /\ (s = O -> bit1 p = true) /\ noadj (tl p) = true.

  Lemma noadj_repeat k p : noadj p = true -> noadj (repeat false k ++ p) = true.
  Proof. induction k as [|k IH]; intros H; [exact H|]. apply IH in H. cbn [repeat app]. destruct (repeat false k ++ p); exact H. Qed.
  Lemma fsum_repeat k : forall p s, fsum (repeat false k ++ p) s = fsum p (s + k).
  Proof. induction k as [|k IH]; intros p s; cbn [repeat app fsum]; [now rewrite Nat.add_0_r|]. rewrite IH, Nat.add_succ_r. reflexivity. Qed.

  (* the element at head + 1 becomes the root over the two smallest trees, which have consecutive orders *)
  Lemma Binv_merge head p s : Binv head p s -> bit0 p && bit1 p = true -> head + 1 < n ->
    Binv (head + 1) (set0 (shr p 2)) (s + 2).
  Proof.
    (* p = 1 1 r; by V the first bit of r, if any, is 0 *)
    intros ((_ & F & _) & _ & V) E H. destruct p as [|[] [|[] r]]; try discriminate.
    replace (s + 2)%nat with (S (S s)) by lia. unfold Binv, WF, shr. cbn [skipn tl fsum] in *.
    destruct r as [|[] r]; try discriminate; cbn [set0 bit0 tl fsum] in *; rewrite leo_SS; repeat split; try lia.
    destruct r; [reflexivity|exact V].
  Qed.
  (* otherwise it is a tree of its own, of order 1, or 0 if there is one of order 1 already *)
  Lemma Binv_push head p q : Binv head p (S q) -> bit0 p && bit1 p = false -> head + 1 < n ->
    Binv (head + 1) (set0 (shl p (match q with O => 1 | S _ => q end))) (match q with O => O | S _ => 1 end).
  Proof.
    (* p = 1 r; r has no two adjacent bits (V) and does not start with 1 (E): so 1 r has none either *)
    intros ((B0 & F & _) & _ & V) E H. destruct p as [|[] r]; try discriminate. cbn [tl fsum] in *.
    assert (Hna : noadj (true :: r) = true) by (destruct r as [|[] r]; [reflexivity|discriminate|exact V]).
    destruct q as [|q]; unfold shl, Binv, WF; cbn [repeat app set0 bit0 bit1 tl fsum].
    - rewrite leo_0. repeat split; auto; lia.
    - rewrite fsum_repeat, leo_1. cbn [Nat.add fsum]. repeat split; try lia. apply noadj_repeat, Hna.
  Qed.

  Lemma build_done X cmp fuel l high p s tr : build X cmp fuel l high high p s tr = Some (l, high, p, s, tr).
  Proof. destruct fuel; cbn [build]; rewrite Z.ltb_irrefl; reflexivity. Qed.
  Lemma build_run : forall fuel l m head p s tr, R l m -> Binv head p s -> n - 1 - head <= Z.of_nat fuel ->
    exists l' m' p' s' tr', build A cmpA fuel l (n - 1) head p s tr = Some (l', n - 1, p', s', tr')
      /\ build B cmpB fuel m (n - 1) head p s tr = Some (m', n - 1, p', s', tr') /\ R l' m' /\ Binv (n - 1) p' s'.
  Proof.
    induction fuel as [|f IH]; intros l m head p s tr HR Hinv Hfuel; pose proof Hinv as (Hwf & Jp & _);
      pose proof (WF_fit _ _ _ Hwf) as Hfit; destruct Hwf as (B0 & _ & Hn);
      (* at head = n - 1 the loop is over, whatever the fuel; before that, no fuel contradicts Hfuel *)
      (destruct (Z.eq_dec head (n - 1)) as [->|Hne]; [rewrite 2 build_done; eexists _, _, _, _, _; auto|]); [lia|].
    cbn [build]. destruct (Z.ltb_spec head (n - 1)); [|lia].
    destruct (bit0 p && bit1 p) eqn:E01.
    - destruct (sift_run l m head s tr HR Hfit) as (l1 & m1 & tr1 & -> & -> & HR1).
      apply IH; [exact HR1|apply Binv_merge; [assumption|assumption|lia]|lia].
    - destruct s as [|q]; [rewrite B0, (Jp eq_refl) in E01; discriminate|].
      destruct (runs_if (leo q >=? n - 1 - head) _ _ _ _
        (trinkle_run l m head p (S q) false tr HR (proj1 Hinv)) (sift_run l m head (S q) tr HR Hfit))
        as (l1 & m1 & tr1 & -> & -> & HR1).
      destruct q; (apply IH; [exact HR1|apply (Binv_push head p _ Hinv E01); lia|lia]).
  Qed.

  Lemma dismantle_run : forall fuel l m head p s tr, R l m -> WF head p s -> (s = O -> bit1 p = true) -> head < Z.of_nat fuel ->
    runs (dismantle A cmpA fuel l head p s tr) (dismantle B cmpB fuel m head p s tr).
  Proof.
    induction fuel as [|f IH]; intros l m head p s tr HR Hwf Jp Hfuel; [destruct (WF_fit _ _ _ Hwf) as [[] _]; lia|].
    cbn [dismantle]. destruct (Nat.eqb s 1 && is_one p) eqn:Ex; [exists l, m, tr; auto|].
    destruct s as [|[|q]].
    3:{ destruct (WF_split _ _ _ Hwf) as (W1 & W2 & J2).
      destruct (trinkle_run l m _ _ _ true tr HR W1) as (l1 & m1 & tr1 & -> & -> & HR1).
      destruct (trinkle_run l1 m1 _ _ _ true tr1 HR1 W2) as (l2 & m2 & tr2 & -> & -> & HR2).
      apply IH; [exact HR2|exact W2|intros _; exact J2|lia]. }
    (* pshift <= 1: the tree at head is a single element; it is removed, the next tree is the last.
       p <> 1: for pshift = 1 that is Ex, for pshift = 0 bit 1 of p is set (Jp) *)
    all: assert (E1 : is_one p = false) by (try exact Ex; destruct p as [|[] [|[] r]]; try reflexivity; discriminate (Jp eq_refl)).
    all: destruct (WF_pop _ _ _ Hwf E1) as (Hwf' & _ & K).
    all: apply IH; [exact HR|exact Hwf'|lia|lia].
  Qed.

  Theorem smoothsort_run l m : R l m -> Z.of_nat (length l) = n -> length m = length l ->
    runs (smoothsort A cmpA l) (smoothsort B cmpB m).
  Proof.
    intros HR Hn Hm. unfold smoothsort. destruct l as [|x l0], m as [|y m0]; try discriminate; [exists [], [], []; auto|].
    rewrite Hm, Hn. cbn [length] in Hn.
    destruct (build_run (length (x :: l0)) _ _ 0 [true] 1 [] HR) as (l1 & m1 & p & s & tr1 & -> & -> & HR1 & Hwf & Jp & _).
    { repeat split; try reflexivity; [lia|intros; discriminate]. }
    { cbn [length]. lia. }
    destruct (trinkle_run l1 m1 (n - 1) p s false tr1 HR1 Hwf) as (l2 & m2 & tr2 & -> & -> & HR2).
    apply dismantle_run; [exact HR2|exact Hwf|exact Jp|cbn [length]; lia].
  Qed.
End Run.

(* cycle is a permutation whatever the slots, duplicates included *)
Section Array.
  Variable A : Type.
  Notation getz := (getz A). Notation setz := (setz A). Notation upd := (upd A).
  Notation cycle := (cycle A). Notation cycle_go := (cycle_go A).

  Lemma upd_length l i a : length (upd l i a) = length l.
  Proof. revert i; induction l as [|x l IH]; intros [|i]; cbn; auto. Qed.
  Lemma upd_perm l i a v : nth_error l i = Some v -> Permutation (v :: upd l i a) (a :: l).
  Proof.
    revert i; induction l as [|x l IH]; intros [|i] H; cbn in *; try discriminate.
    - inversion H; subst. apply perm_swap.
    - rewrite perm_swap, (IH i H). apply perm_swap.
  Qed.
  Lemma nth_error_upd_copy l : forall i j a, nth_error l j = Some a -> nth_error (upd l i a) j = Some a.
  Proof. induction l as [|x l IH]; intros [|i] [|j] a H; cbn in *; auto. Qed.
  Lemma getz_nth l i : 0 <= i -> getz l i = nth_error l (Z.to_nat i).
  Proof. intros H. unfold ModSort.getz. apply Z.leb_le in H. rewrite H. reflexivity. Qed.
  Lemma getz_in l i : 0 <= i < Z.of_nat (length l) -> exists v, getz l i = Some v.
  Proof.
    intros H. rewrite getz_nth by lia. destruct (nth_error l (Z.to_nat i)) eqn:E; [eauto|]. apply nth_error_None in E. lia.
  Qed.
  Lemma setz_in l i a : 0 <= i < Z.of_nat (length l) -> setz l i a = Some (upd l (Z.to_nat i) a).
  Proof.
    intros H. unfold ModSort.setz. replace (0 <=? i) with true by (symmetry; apply Z.leb_le; lia).
    replace (i <? Z.of_nat (length l)) with true by (symmetry; apply Z.ltb_lt; lia). reflexivity.
  Qed.

  Lemma cycle_go_in rest : forall l tmp i v, Forall (fun k => 0 <= k < Z.of_nat (length l)) (i :: rest) -> getz l i = Some v ->
    exists l', cycle_go l (i :: rest) tmp = Some l' /\ Permutation (v :: l') (tmp :: l).
  Proof.
    induction rest as [|j r IH]; intros l tmp i v H Hv; inversion H as [|? ? Hi Hr]; subst; cbn [ModSort.cycle_go];
      rewrite getz_nth in Hv by lia.
    - rewrite setz_in by exact Hi. eexists. split; [reflexivity|]. apply upd_perm, Hv.
    - inversion Hr as [|? ? Hj _]; subst. destruct (getz_in l j Hj) as [a Ha]. rewrite Ha, setz_in by exact Hi.
      destruct (IH (upd l (Z.to_nat i) a) tmp j a) as (l' & E & P).
      + rewrite upd_length. exact Hr.
      + rewrite getz_nth in * by lia. apply nth_error_upd_copy, Ha.
      + cbn [ModSort.cycle_go] in E. exists l'. split; [exact E|]. apply Permutation_cons_inv with (a := a).
        rewrite (perm_swap v a), P, (perm_swap tmp v), (upd_perm l _ a v Hv). apply perm_swap.
  Qed.
  Lemma cycle_in l ar : Forall (fun k => 0 <= k < Z.of_nat (length l)) ar -> exists l', cycle l ar = Some l' /\ Permutation l l'.
  Proof.
    intros H. unfold ModSort.cycle. destruct ar as [|i [|j r]]; try (now exists l).
    inversion H as [|? ? Hi _]; subst. destruct (getz_in l i Hi) as [v Hv]. rewrite Hv.
    destruct (cycle_go_in (j :: r) l v i v H Hv) as (l' & -> & P). exists l'. split; [reflexivity|].
    symmetry. eapply Permutation_cons_inv, P.
  Qed.
End Array.

Section Param.
  Variables A B : Type.
  Variable cmpA : A -> A -> Z.
  Variable cmpB : B -> B -> Z.
  Variable f : A -> B.
  Variable l0 : list A.
  Hypothesis Hc : forall a a', In a l0 -> In a' l0 ->
    (cmpA a a' >=? 0) = (cmpB (f a) (f a') >=? 0) /\ (cmpA a a' <=? 0) = (cmpB (f a) (f a') <=? 0).

  Definition om {X Y} (g : X -> Y) (o : option X) : option Y := match o with Some x => Some (g x) | None => None end.
  Definition mf2 (x : list A * trace) : list B * trace := (map f (fst x), snd x).

  Lemma getz_map l i : getz B (map f l) i = om f (getz A l i).
  Proof. unfold getz. destruct (0 <=? i); [|reflexivity]. rewrite nth_error_map. destruct (nth_error l (Z.to_nat i)); reflexivity. Qed.
  Lemma upd_map l i a : upd B (map f l) i (f a) = map f (upd A l i a).
  Proof. revert i; induction l as [|x l IH]; intros [|i]; cbn; auto. f_equal. apply IH. Qed.
  Lemma setz_map l i a : setz B (map f l) i (f a) = om (map f) (setz A l i a).
  Proof. unfold setz. rewrite map_length. destruct ((0 <=? i) && (i <? Z.of_nat (length l))); [|reflexivity]. cbn. f_equal. apply upd_map. Qed.
  Lemma cycle_go_map ar : forall l tmp, cycle_go B (map f l) ar (f tmp) = om (map f) (cycle_go A l ar tmp).
  Proof.
    induction ar as [|i rest IH]; intros l tmp; cbn [cycle_go]; [reflexivity|]. destruct rest as [|j r]; [apply setz_map|].
    rewrite getz_map. destruct (getz A l j) as [a|]; [|reflexivity]. cbn [om]. rewrite setz_map.
    destruct (setz A l i a) as [l1|]; [|reflexivity]. cbn [om]. apply IH.
  Qed.
  Lemma cycle_map l ar : cycle B (map f l) ar = om (map f) (cycle A l ar).
  Proof.
    unfold cycle. destruct ar as [|i rest]; [reflexivity|]. destruct rest as [|j r]; [reflexivity|].
    rewrite getz_map. destruct (getz A l i) as [a|]; [|reflexivity]. cbn [om]. apply cycle_go_map.
  Qed.

  Theorem smoothsort_image : exists l' tr,
    smoothsort A cmpA l0 = Some (l', tr) /\ smoothsort B cmpB (map f l0) = Some (map f l', tr) /\ Permutation l0 l'.
  Proof.
    set (R := fun l m => m = map f l /\ Permutation l0 l).
    destruct (smoothsort_run A B cmpA cmpB (Z.of_nat (length l0)) R) with (l := l0) (m := map f l0)
      as (l' & m' & tr & E & E' & -> & P); try (split; reflexivity); try apply map_length; [| |exists l', tr; auto].
    - intros l m i j [-> P] Hi Hj. unfold inside in *. rewrite (Permutation_length P) in Hi, Hj.
      destruct (getz_in A l i Hi) as [a Ha], (getz_in A l j Hj) as [b Hb]. unfold cmp_at. rewrite !getz_map, Ha, Hb.
      exists (cmpA a b), (cmpB (f a) (f b)). split; [reflexivity|]. split; [reflexivity|].
      rewrite getz_nth in Ha, Hb by lia. apply Hc; apply (Permutation_in _ (Permutation_sym P)); eapply nth_error_In; eassumption.
    - intros l m ar [-> P] Har. unfold inside in Har. rewrite (Permutation_length P) in Har.
      destruct (cycle_in A l ar Har) as (l' & E & P'). exists l', (map f l'). rewrite cycle_map, E.
      split; [reflexivity|]. split; [reflexivity|]. split; [reflexivity|]. transitivity l; assumption.
  Qed.
  Theorem smoothsort_map : smoothsort B cmpB (map f l0) = om mf2 (smoothsort A cmpA l0).
  Proof. destruct smoothsort_image as (l' & tr & -> & -> & _). reflexivity. Qed.
End Param.

Section SortProofs.
  Variable A : Type.
  Variable cmp : A -> A -> Z.
  Theorem smoothsort_perm l l' tr : smoothsort A cmp l = Some (l', tr) -> Permutation l l' /\ length l' = length l.
  Proof.
    destruct (smoothsort_image A A cmp cmp (fun a => a) l) as (l1 & tr1 & -> & _ & P); [auto|].
    intros H. inversion H; subst. split; [exact P|]. symmetry. apply Permutation_length, P.
  Qed.
End SortProofs.

(* the sort never dereferences an index outside the array, and it terminates within its fuel *)
Theorem smoothsort_total (A : Type) (cmp : A -> A -> Z) (l : list A) : smoothsort A cmp l <> None.
Proof. destruct (smoothsort_image A A cmp cmp (fun a => a) l) as (l1 & tr1 & -> & _); [auto|discriminate]. Qed.

(* the comparator and the order predicate of the order theorem for small arrays (ProofsSort7.v) *)
Definition zcmp (a b : Z) : Z := match Z.compare a b with Lt => -1 | Eq => 0 | Gt => 1 end.
Lemma zcmp_spec a b : (0 <= zcmp a b <-> b <= a) /\ (zcmp a b <= 0 <-> a <= b).
Proof. unfold zcmp. destruct (Z.compare_spec a b); lia. Qed.
Fixpoint sortedb (l : list Z) : bool :=
  match l with a :: r => match r with b :: _ => (a <=? b) && sortedb r | [] => true end | [] => true end.
