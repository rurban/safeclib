(* ProofsConv.v -- the parts of the conversion wrappers (C15): with the C library's converters modelled as storing as many
   elements as they are asked for (ModConv.v), every store of the loops, of the entry checks and of the shared exit lies inside
   dest[0 .. dmax) or the result cell, whatever len; Properties_C15.v puts them together for the four wrappers.  Then what
   the shared exit delivers. *)
From Coq Require Import List ZArith Lia Bool.
From SC Require Import Base Wp Cfg Comb CombProofs ModConv.
Import ListNotations.
Local Open Scope Z_scope.
Local Open Scope prog_scope.

Definition convP (dest dsz retvalp rsz : Z) : Z -> Prop := fun a => ext dest dsz a \/ ext retvalp rsz a.
Global Hint Unfold convP : rng.

Lemma store_bytes_writes (P : Z -> Prop) l : forall p k, range_in P p (Z.of_nat (length l)) ->
  writes_in P k -> writes_in P (store_bytes p l k).
Proof. induction l as [|b l IH]; intros p k HP Hk; cbn [store_bytes length] in *; walk. Qed.
Global Hint Extern 2 (writes_in _ (store_bytes _ _ _)) => (apply store_bytes_writes; walk) : walk.

Lemma mb_dec_writes (P : Z -> Prop) utf8 p k : (forall r, writes_in P (k r)) -> writes_in P (mb_dec utf8 p k).
Proof. intros Hk. unfold mb_dec. walk. Qed.
Global Hint Extern 2 (writes_in _ (mb_dec _ _ _)) => (apply mb_dec_writes; walk) : walk.
Lemma mb_dec_rets (Q : Z -> Prop) utf8 p k : (forall r, rets Q (k r)) -> rets Q (mb_dec utf8 p k).
Proof. intros Hk. unfold mb_dec. walk. Qed.

Lemma mbstowcs_loop_writes (P : Z -> Prop) utf8 w n : 0 < w -> forall dest src cnt, 0 <= cnt ->
  (dest <> 0 -> range_in P dest ((cnt + Z.of_nat n) * w)) ->
  writes_in P (mbstowcs_loop utf8 w n dest src cnt).
Proof. intros Hw. induction n as [|n IH]; walk. Qed.
Lemma mbstowcs_loop_rets utf8 w n : forall dest src cnt, 0 <= cnt ->
  rets (fun r => 0 <= r) (mbstowcs_loop utf8 w n dest src cnt).
Proof.
  induction n as [|n IH]; intros dest src cnt Hc; walk.
  apply mb_dec_rets; walk; try (apply IH; lia); unfold SIZE_MAX; lia.
Qed.

Lemma wcstombs_loop_writes (P : Z -> Prop) utf8 w n : forall dest src len cnt, 0 <= cnt ->
  (dest <> 0 -> range_in P dest len) ->
  writes_in P (wcstombs_loop utf8 w n dest src len cnt).
Proof. induction n as [|n IH]; walk. Qed.
Lemma wcstombs_loop2_writes (P : Z -> Prop) utf8 w n (k : Z -> option Z -> prog Z) : forall dest src len cnt, 0 <= cnt ->
  range_in P dest len -> (forall c' nx, writes_in P (k c' nx)) ->
  writes_in P (wcstombs_loop2 utf8 w n dest src len cnt k).
Proof. induction n as [|n IH]; walk. Qed.
Global Hint Resolve mbstowcs_loop_writes wcstombs_loop_writes : walk.
Global Hint Extern 2 (writes_in _ (wcstombs_loop2 _ _ _ _ _ _ _ _)) => (apply wcstombs_loop2_writes; walk) : walk.

(* the object size, when the library knows it: either it covers both dmax and len elements (the call proceeds), or it is at most
   the declared size (the failing exit clears the object, which then lies inside the declaration).  Excluded: dmax elements fit
   the object but len elements do not -- there the failing exit clears the whole object, beyond dest[dmax):
   Properties_C15.C15_mbstowcs_s_bos_len_refuted *)
Definition conv_bos_ok (w dmax len destbos : Z) : Prop :=
  destbos = BOS_UNKNOWN \/ (dmax * w <= destbos /\ len * w <= destbos) \/ w <= destbos <= dmax * w.

(* the entry checks of mbstowcs_s / wcstombs_s around any body: the body runs with a null dest or with 1 <= dmax; the failing exit
   for a known object size clears n elements (dsz, lsz: dmax and len in bytes) *)
Lemma conv_checks_writes (P : Z -> Prop) c w dest dmax destbos dsz lsz n (big : bool) (body : prog Z) :
  0 <= dmax -> (dest = 0 \/ 1 <= dmax -> writes_in P body) ->
  (dest <> 0 -> 1 <= dmax -> destbos <> BOS_UNKNOWN -> destbos < dsz \/ destbos < lsz ->
   forall code, writes_in P (handle_error c w dest n code ;;; Ret code)) ->
  writes_in P
    (if dest =? 0 then body
     else if dmax =? 0 then fail_str ESZEROL
     else if destbos =? BOS_UNKNOWN then (if big then fail_str ESLEMAX else body)
     else if (destbos <? dsz) || (destbos <? lsz) then
       (if big then handle_error c w dest n ESLEMAX ;;; Ret ESLEMAX else handle_error c w dest n EOVERFLOW ;;; Ret EOVERFLOW)
     else body).
Proof. intros H0 Hbody Hclr. walk. Qed.

(* the exit of wcrtomb_s / wctomb_s once the length len of the result is known: when it fits, the bytes bs, then the slack or the
   terminator; otherwise dest is cleared and rc reported.  The text of the two models matches it by conversion only (the lemmas
   about it are applied to the unfolded models): an edit of ModConv.wcrtomb_s / wctomb_s has to keep this shape *)
Definition deliver (c : cfg) (dest dmax : Z) (bs : list Z) (len : Z) (term fits : bool) (rc : Z) : prog Z :=
  if fits then
    (if dest =? 0 then Ret EOK
     else store_bytes dest bs (if null_slack c then Fill (dest + len) (dmax - len) 0 (Ret EOK)
                               else if term then Store 1 (dest + len) 0 (Ret EOK) else Ret EOK))
  else if dest =? 0 then Ret rc else handle_error c 1 dest dmax rc ;;; Ret rc.

Lemma deliver_writes c dest dmax bs len term fits rc retvalp rsz :
  (dest = 0 \/ 1 <= dmax) -> (dest <> 0 -> fits = true -> Z.of_nat (length bs) <= len < dmax) ->
  writes_in (convP dest dmax retvalp rsz) (deliver c dest dmax bs len term fits rc).
Proof. intros Hd Hf. unfold deliver. destruct fits; [specialize (fun H => Hf H eq_refl)|clear Hf]; walk. Qed.

Lemma chk_c_dest_writes (P : Z -> Prop) c dest dmax destbos k :
  ((dest = 0 \/ 1 <= dmax) -> writes_in P (k tt)) -> 0 <= dmax -> writes_in P (chk_c_dest c dest dmax destbos k).
Proof. intros Hk H0. unfold chk_c_dest. walk. Qed.
Lemma chk_c_dest_ok c dest dmax k : dest <> 0 -> 1 <= dmax <= rmax_wstr c -> chk_c_dest c dest dmax BOS_UNKNOWN k = k tt.
Proof. intros Hd Hm. unfold chk_c_dest. tests. reflexivity. Qed.

Lemma wcx_spec utf8 r dest wc : dest <> 0 ->
  match wc_enc utf8 wc with
  | Some bs => wcx_bytes utf8 wc = bs /\ wcx_len utf8 r dest wc = Z.of_nat (length bs)
  | None => wcx_bytes utf8 wc = [] /\ wcx_len utf8 r dest wc = if r then SIZE_MAX else -1
  end.
Proof. intros Hd. unfold wcx_bytes, wcx_len. replace (dest =? 0) with false by lia. destruct (wc_enc utf8 wc); auto. Qed.
Lemma wcx_len_bytes utf8 r dest wc : dest <> 0 -> 0 <= wcx_len utf8 r dest wc < SIZE_MAX ->
  Z.of_nat (length (wcx_bytes utf8 wc)) = wcx_len utf8 r dest wc.
Proof.
  intros Hd. pose proof (wcx_spec utf8 r dest wc Hd) as S. destruct (wc_enc utf8 wc); destruct S as [-> ->]; [reflexivity|].
  destruct r; unfold SIZE_MAX; lia.
Qed.
(* the restartable form reports an unencodable character as (size_t)-1, the other as -1 *)
Lemma wcx_bytes_le utf8 r dest wc : dest <> 0 -> (r = false -> 0 <= wcx_len utf8 r dest wc) ->
  Z.of_nat (length (wcx_bytes utf8 wc)) <= wcx_len utf8 r dest wc.
Proof.
  intros Hd. pose proof (wcx_spec utf8 r dest wc Hd) as S. destruct (wc_enc utf8 wc); destruct S as [-> ->]; cbn [length]; intros Hr; [lia|].
  destruct r; [unfold SIZE_MAX; lia|apply Hr; reflexivity].
Qed.

Fixpoint put_bytes (m : mem) (p : Z) (l : list Z) : mem :=
  match l with [] => m | b :: t => put_bytes (store m 1 p b) (p + 1) t end.
Lemma store_bytes_wp l : forall p k m (Q : Z -> mem -> Prop), wp k (put_bytes m p l) Q -> wp (store_bytes p l k) m Q.
Proof. induction l as [|b l IH]; intros p k m Q H; cbn [store_bytes put_bytes wp] in *; [exact H|]. apply IH. exact H. Qed.
Lemma put_bytes_out l : forall m p x, ~ (p <= x < p + Z.of_nat (length l)) -> put_bytes m p l x = m x.
Proof.
  induction l as [|b l IH]; intros m p x Hx; cbn [put_bytes]; [reflexivity|]. cbn [length] in Hx. rewrite Nat2Z.inj_succ in Hx.
  rewrite IH by lia. apply store_out. lia.
Qed.
Lemma put_bytes_in l : forall m p i, (i < length l)%nat -> put_bytes m p l (p + Z.of_nat i) = (nth i l 0) mod 256.
Proof.
  induction l as [|b l IH]; intros m p i Hi; cbn [length] in Hi; [lia|]. cbn [put_bytes]. destruct i as [|i].
  - cbn [Z.of_nat nth]. rewrite Z.add_0_r. rewrite put_bytes_out by lia. apply store1_in.
  - replace (p + Z.of_nat (S i)) with (p + 1 + Z.of_nat i) by lia. cbn [nth]. apply IH. lia.
Qed.

Definition delivered (c : cfg) (rsz retvalp dest dmax : Z) (bs : list Z) (m : mem) (r : Z) (m' : mem) : Prop :=
  r = EOK /\ load m' rsz retvalp = Z.of_nat (length bs) /\
  (forall i, (i < length bs)%nat -> m' (dest + Z.of_nat i) = nth i bs 0) /\
  (null_slack c = true -> forall x, dest + Z.of_nat (length bs) <= x < dest + dmax -> m' x = 0) /\
  (forall x, ~ (dest <= x < dest + dmax) -> ~ (retvalp <= x < retvalp + rsz) -> m' x = m x).

Lemma deliver_spec c rsz retvalp dest dmax bs term fits rc m :
  dest <> 0 -> 0 <= rsz -> fits = true -> Z.of_nat (length bs) < dmax -> Z.of_nat (length bs) < 256 ^ rsz ->
  Forall (fun b => 0 <= b < 256) bs -> (retvalp + rsz <= dest \/ dest + dmax <= retvalp) ->
  wp (Store rsz retvalp (Z.of_nat (length bs)) (deliver c dest dmax bs (Z.of_nat (length bs)) term fits rc)) m
     (delivered c rsz retvalp dest dmax bs m).
Proof.
  intros Hd Hrsz -> Hfit Hbig Hb Hdisj. unfold deliver. replace (dest =? 0) with false by lia. cbn [wp].
  apply store_bytes_wp. set (m1 := store m rsz retvalp (Z.of_nat (length bs))). set (m2 := put_bytes m1 dest bs).
  (* m2 has the cell and the bytes in place; what follows changes at most dest beyond the bytes, and zeroes that with null-slack *)
  assert (Hend : forall m3 : mem, (forall x, ~ (dest + Z.of_nat (length bs) <= x < dest + dmax) -> m3 x = m2 x) ->
                 (null_slack c = true -> forall x, dest + Z.of_nat (length bs) <= x < dest + dmax -> m3 x = 0) ->
                 delivered c rsz retvalp dest dmax bs m EOK m3).
  { intros m3 Hsame Hz. split; [reflexivity|]. split; [|split; [|split; [exact Hz|]]].
    - rewrite (load_ext _ m1). { subst m1. rewrite load_store_same by exact Hrsz. apply Z.mod_small. lia. }
      intros x Hx. rewrite Hsame by lia. apply put_bytes_out. lia.
    - intros i Hi. rewrite Hsame by lia. subst m2. rewrite put_bytes_in by exact Hi.
      apply Z.mod_small. rewrite Forall_forall in Hb. apply Hb, nth_In, Hi.
    - intros x H1 H2. rewrite Hsame by lia. subst m2. rewrite put_bytes_out by lia. apply store_out. lia. }
  destruct (null_slack c); [|destruct term]; cbn [wp]; apply Hend; try discriminate.
  - intros x Hx. apply fill_out. lia.
  - intros _ x Hx. apply fill_in. lia.
  - intros x Hx. apply store_out. lia.
  - reflexivity.
Qed.
