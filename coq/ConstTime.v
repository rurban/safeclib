(* ConstTime.v -- C19(b): a tiny imperative language for the loops of the timingsafe comparators,
   its leakage semantics (branch outcomes + addresses accessed), a secrecy type system, the theorem
   (a well-typed program leaks the same for every pair of memories) and the inference that finds the typing
   ([ct_check]).  The language has its own memory type: nothing here connects it with [prog]. *)
From Coq Require Import List ZArith.
Import ListNotations.
Local Open Scope Z_scope.

Inductive cop := OXor | OOr | OAnd | OSub | OAdd | OShr | OLt | ONe | OMul.
Inductive cexpr :=
| CConst (z : Z)
| CVar (x : nat)
| CLoad (addr : cexpr)            (* one byte at the address *)
| CBin (op : cop) (a b : cexpr)
| CNot (a : cexpr)                (* bitwise complement *)
| CLNot (a : cexpr).              (* logical not *)
Inductive cstmt :=
| CSkip
| CAssign (x : nat) (e : cexpr)
| CSeq (a b : cstmt)
| CIf (c : cexpr) (a b : cstmt)
| CWhile (c : cexpr) (body : cstmt).

Definition cenv := nat -> Z.
Definition cmem := Z -> Z.
Definition set (e : cenv) (x : nat) (v : Z) : cenv := fun y => if Nat.eqb y x then v else e y.
Inductive obs := OBranch (b : bool) | OAddr (a : Z).

Definition cop_eval (op : cop) (a b : Z) : Z :=
  match op with
  | OXor => Z.lxor a b | OOr => Z.lor a b | OAnd => Z.land a b | OSub => a - b | OAdd => a + b
  | OShr => Z.shiftr a b | OLt => if a <? b then 1 else 0 | ONe => if a =? b then 0 else 1 | OMul => a * b
  end.
Fixpoint ceval (e : cexpr) (env : cenv) (m : cmem) : Z * list obs :=
  match e with
  | CConst z => (z, [])
  | CVar x => (env x, [])
  | CLoad a => let '(va, la) := ceval a env m in (m va, la ++ [OAddr va])
  | CBin op a b => let '(va, la) := ceval a env m in let '(vb, lb) := ceval b env m in (cop_eval op va vb, la ++ lb)
  | CNot a => let '(va, la) := ceval a env m in (Z.lnot va, la)
  | CLNot a => let '(va, la) := ceval a env m in ((if va =? 0 then 1 else 0), la)
  end.
Fixpoint cexec (fuel : nat) (s : cstmt) (env : cenv) (m : cmem) : option (cenv * list obs) :=
  match fuel with
  | O => None
  | S f =>
      match s with
      | CSkip => Some (env, [])
      | CAssign x e => let '(v, l) := ceval e env m in Some (set env x v, l)
      | CSeq a b => match cexec f a env m with
                    | Some (env1, l1) => match cexec f b env1 m with Some (env2, l2) => Some (env2, l1 ++ l2) | None => None end
                    | None => None end
      | CIf c a b => let '(v, l) := ceval c env m in
                     match cexec f (if v =? 0 then b else a) env m with
                     | Some (env1, l1) => Some (env1, l ++ OBranch (negb (v =? 0)) :: l1) | None => None end
      | CWhile c body => let '(v, l) := ceval c env m in
                     if v =? 0 then Some (env, l ++ [OBranch false])
                     else match cexec f body env m with
                          | Some (env1, l1) => match cexec f (CWhile c body) env1 m with
                                               | Some (env2, l2) => Some (env2, l ++ OBranch true :: l1 ++ l2) | None => None end
                          | None => None end
      end
  end.

Inductive lvl := Pub | Sec.
Definition join (a b : lvl) : lvl := match a, b with Pub, Pub => Pub | _, _ => Sec end.
Definition leb_lvl (a b : lvl) : bool := match a, b with Sec, Pub => false | _, _ => true end.
Definition tenv := nat -> lvl.
(* None: ill-typed (an address depends on a secret) *)
Fixpoint ety (G : tenv) (e : cexpr) : option lvl :=
  match e with
  | CConst _ => Some Pub
  | CVar x => Some (G x)
  | CLoad a => match ety G a with Some Pub => Some Sec | _ => None end     (* memory contents are secret *)
  | CBin _ a b => match ety G a, ety G b with Some x, Some y => Some (join x y) | _, _ => None end
  | CNot a | CLNot a => ety G a
  end.
Fixpoint sty (G : tenv) (s : cstmt) : bool :=
  match s with
  | CSkip => true
  | CAssign x e => match ety G e with Some l => leb_lvl l (G x) | None => false end
  | CSeq a b => sty G a && sty G b
  | CIf c a b => match ety G c with Some Pub => sty G a && sty G b | _ => false end
  | CWhile c body => match ety G c with Some Pub => sty G body | _ => false end
  end.

Definition pub_eq (G : tenv) (e1 e2 : cenv) : Prop := forall x, G x = Pub -> e1 x = e2 x.

Lemma join_pub a b : join a b = Pub -> a = Pub /\ b = Pub.
Proof. destruct a, b; cbn; intros H; try discriminate H; auto. Qed.

Lemma ety_sound G e : forall l, ety G e = Some l -> forall r1 r2 m1 m2, pub_eq G r1 r2 ->
  snd (ceval e r1 m1) = snd (ceval e r2 m2) /\ (l = Pub -> fst (ceval e r1 m1) = fst (ceval e r2 m2)).
Proof.
  induction e; cbn; intros l Ht r1 r2 m1 m2 Hp.
  (* both negations act on the value alone *)
  5,6: destruct (IHe l Ht r1 r2 m1 m2 Hp) as [L V]; destruct (ceval e r1 m1), (ceval e r2 m2); cbn in *.
  5,6: split; [exact L|]; intros E; rewrite V; auto.
  - auto.
  - inversion Ht. auto.
  - destruct (ety G e) as [[|]|]; try discriminate Ht. inversion Ht.
    destruct (IHe Pub eq_refl r1 r2 m1 m2 Hp) as [L V]. specialize (V eq_refl).
    destruct (ceval e r1 m1), (ceval e r2 m2). cbn in *. subst. split; [reflexivity|discriminate].
  - destruct (ety G e1) as [x|]; [|discriminate Ht]. destruct (ety G e2) as [y|]; [|discriminate Ht]. inversion Ht.
    destruct (IHe1 x eq_refl r1 r2 m1 m2 Hp) as [L1 V1]. destruct (IHe2 y eq_refl r1 r2 m1 m2 Hp) as [L2 V2].
    destruct (ceval e1 r1 m1), (ceval e1 r2 m2), (ceval e2 r1 m1), (ceval e2 r2 m2). cbn in *. subst.
    split; [reflexivity|]. intros J. apply join_pub in J. destruct J. rewrite V1, V2; auto.
Qed.
Lemma ety_pub G e r1 r2 m1 m2 : ety G e = Some Pub -> pub_eq G r1 r2 -> ceval e r1 m1 = ceval e r2 m2.
Proof.
  intros Ht Hp. destruct (ety_sound G e Pub Ht r1 r2 m1 m2 Hp) as [L V].
  rewrite (surjective_pairing (ceval e r1 m1)), (surjective_pairing (ceval e r2 m2)), L, V; reflexivity.
Qed.

Lemma set_pub_eq G e1 e2 x v1 v2 : pub_eq G e1 e2 -> (G x = Pub -> v1 = v2) -> pub_eq G (set e1 x v1) (set e2 x v2).
Proof. intros Hp Hv y Hy. unfold set. destruct (Nat.eqb_spec y x); subst; auto. Qed.

Definition lockstep (G : tenv) (o1 o2 : option (cenv * list obs)) : Prop :=
  match o1, o2 with
  | Some (f1, l1), Some (f2, l2) => l1 = l2 /\ pub_eq G f1 f2
  | None, None => True
  | _, _ => False
  end.
Lemma lockstep_bind G o1 o2 (k1 k2 : cenv -> list obs -> option (cenv * list obs)) :
  lockstep G o1 o2 -> (forall f1 f2 l, pub_eq G f1 f2 -> lockstep G (k1 f1 l) (k2 f2 l)) ->
  lockstep G (match o1 with Some (f, l) => k1 f l | None => None end)
             (match o2 with Some (f, l) => k2 f l | None => None end).
Proof. destruct o1 as [[f1 l1]|], o2 as [[f2 l2]|]; cbn; try tauto. intros [-> Hp] Hk. apply Hk, Hp. Qed.

Theorem ct_noninterference G : forall fuel s e1 e2 m1 m2, sty G s = true -> pub_eq G e1 e2 ->
  lockstep G (cexec fuel s e1 m1) (cexec fuel s e2 m2).
Proof.
  induction fuel as [|fuel IH]; intros s e1 e2 m1 m2 Ht Hp; cbn; auto.
  destruct s as [|x e|a b|c a b|c body]; cbn in Ht.
  - split; auto.
  - destruct (ety G e) as [l|] eqn:E; [|discriminate].
    destruct (ety_sound G e l E e1 e2 m1 m2 Hp) as [L V].
    destruct (ceval e e1 m1) as [v1 l1], (ceval e e2 m2) as [v2 l2]. split; [exact L|].
    apply set_pub_eq; auto. intros Hx. apply V. destruct l; [reflexivity|rewrite Hx in Ht; discriminate].
  - apply andb_prop in Ht. destruct Ht as [Ha Hb].
    apply lockstep_bind; [apply IH; auto|]. intros f1 f2 l Hf.
    apply lockstep_bind; [apply IH; auto|]. intros g1 g2 k Hg. split; auto.
  - destruct (ety G c) as [[|]|] eqn:E; try discriminate. apply andb_prop in Ht. destruct Ht as [Ha Hb].
    rewrite (ety_pub G c e1 e2 m1 m2 E Hp). destruct (ceval c e2 m2) as [v l].
    apply lockstep_bind; [apply IH; [destruct (v =? 0)|]; auto|]. intros f1 f2 k Hf. split; auto.
  - destruct (ety G c) as [[|]|] eqn:E; try discriminate.
    rewrite (ety_pub G c e1 e2 m1 m2 E Hp). destruct (ceval c e2 m2) as [v l].
    destruct (v =? 0); [split; auto|].
    apply lockstep_bind; [apply IH; auto|]. intros f1 f2 k Hf.
    apply lockstep_bind; [apply IH; [cbn; rewrite E|]; auto|]. intros g1 g2 j Hg. split; auto.
Qed.

(* type inference for variables 0..nvars-1: start from all Pub and, round by round, raise to Sec every variable
   that is assigned an expression which is not Pub; the check fails if a condition or an address ends up Sec.
   Every round before the fixed point raises at least one variable, so nvars rounds reach it; too few could only
   make [sty] refuse, since the inferred typing is checked, not trusted. *)
Fixpoint assigned_sec (G : tenv) (s : cstmt) (x : nat) : bool :=
  match s with
  | CSkip => false
  | CAssign y e => Nat.eqb x y && match ety G e with Some Pub => false | _ => true end
  | CSeq a b | CIf _ a b => assigned_sec G a x || assigned_sec G b x
  | CWhile _ b => assigned_sec G b x
  end.
(* the environment is materialised as a list in every round (closures would re-evaluate exponentially) *)
Definition of_list (l : list lvl) : tenv := fun x => nth x l Pub.
Fixpoint infer (rounds nvars : nat) (s : cstmt) (l : list lvl) : list lvl :=
  match rounds with
  | O => l
  | S r => infer r nvars s
             (map (fun x => match nth x l Pub with Sec => Sec | Pub => if assigned_sec (of_list l) s x then Sec else Pub end) (seq 0 nvars))
  end.
Definition ct_check (nvars : nat) (s : cstmt) : bool := sty (of_list (infer nvars nvars s (repeat Pub nvars))) s.
