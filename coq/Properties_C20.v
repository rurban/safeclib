(* Properties_C20.v -- C20: running out of memory inside the library is an error, not a crash.
   The objects are allocation skeletons of the allocating paths (AllocModel.v: requests, checks, frees on
   every exit); they are tied to the code by failing the k-th allocation of the real library in turn
   (link-time wrap of malloc/realloc/calloc/free).  Each proof fixes the oracle's two answers and evaluates. *)
From Coq Require Import ZArith.
From SC Require Import Base Cfg AllocModel.
From SC.Gen Require Import Consts.
Local Open Scope Z_scope.

(* for EVERY failure oracle: no NULL use, nothing outstanding at return, a failed request is reported *)
Theorem C20_wcsicmp_s : forall sz1 sz2 e1 e2, C20_holds (sk_wcsicmp sz1 sz2 e1 e2).
Proof. intros sz1 sz2 e1 e2 fail m. rewrite run_two_answers. destruct (fail 0%nat), (fail 1%nat), e1, e2; lazy; reflexivity. Qed.
Print Assumptions C20_wcsicmp_s.
Theorem C20_engine_ls_except : forall l n o, C20_holds (sk_ls l false n o).
Proof. intros l n o fail m. rewrite run_two_answers. destruct (fail 0%nat), n, o; lazy; reflexivity. Qed.
Print Assumptions C20_engine_ls_except.
(* the %ls path as written is fine unless the conversion fails: known finding engine-ls-leak, the conversion-error exit
   returns without free(p) *)
Theorem C20_engine_ls_leak_refuted : exists l n o, ~ C20_holds (sk_ls l true n o).
Proof. exists 3, false, false. intros H. specialize (H nofail (fun _ => 0)). lazy in H. discriminate. Qed.
Print Assumptions C20_engine_ls_leak_refuted.
Theorem C20_engine_ls_repaired : forall l c n o, C20_holds (sk_ls_repaired l c n o).
Proof. intros l c n o fail m. rewrite run_two_answers. destruct (fail 0%nat), c, n, o; lazy; reflexivity. Qed.
(* known findings engine-longdouble-unchecked-malloc (%Lf/%Le/%Lg/%La/%a with trailing format text) and
   wprintf-probe-unchecked-malloc: a failing request is dereferenced *)
Theorem C20_engine_longdouble_refuted : exists off src, ~ C20_holds (sk_longdouble off src).
Proof. exists 3, 5000. intros H. specialize (H (fun _ => true) (fun _ => 0)). lazy in H. discriminate. Qed.
Print Assumptions C20_engine_longdouble_refuted.
Theorem C20_wprintf_probe_refuted : exists dmax, ~ C20_holds (sk_wprobe dmax).
Proof. exists 600. intros H. specialize (H (fun _ => true) (fun _ => 0)). lazy in H. discriminate. Qed.
Print Assumptions C20_wprintf_probe_refuted.
Theorem C20_cfg_repo_wf : wf_cfg cfg_repo.
Proof. exact wf_cfg_repo. Qed.
