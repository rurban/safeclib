(* Properties_C12.v -- C12: reentrancy. *)
From Coq Require Import ZArith Lia.
From SC Require Import Base Cfg CombProofs ModStr ModMem ProofsStr ProofsMem PropDefs Interleave StaticsCheck.   (* ProofsStr, ProofsMem: for their hints *)
From SC.Gen Require Import Statics.
Local Open Scope Z_scope.

(* (1) generic: disjoint footprints, no static, no allocation => every interleaving = sequential *)
Theorem C12_interleaving_is_sequential : forall (A B : Type) Rp Wp Rq Wq (s : list bool) (p : prog A) (q : prog B) m,
  disjoint_fp Rp Wp Rq Wq -> decidable_set Wq -> fp Rp Wp p -> fp Rq Wq q ->
  match inter s p q m, runm p m with
  | Some (a, b, m'), Some (a0, m1) =>
      match runm q m1 with Some (b0, m2) => a = a0 /\ b = b0 /\ meq m' m2 | None => False end
  | _, _ => False
  end.
Proof. exact (@inter_seq). Qed.
Print Assumptions C12_interleaving_is_sequential.
(* the memory-only semantics used there is [run] on programs that neither allocate nor use statics *)
Theorem C12_runm_is_run : forall (A : Type) (fail : nat -> bool) (p : prog A), plain p -> forall st,
  runm p (wm st) = Some (fst (run fail p st), wm (snd (run fail p st))).
Proof. exact (@runm_run). Qed.
Print Assumptions C12_runm_is_run.
(* footprints come from the C01/C02 footprint lemmas *)
Theorem C12_fp_from_footprints : forall (A : Type) R W (p : prog A), plain p -> reads_in R p -> writes_in W p -> fp R W p.
Proof. exact (@fp_from_footprints). Qed.
Print Assumptions C12_fp_from_footprints.

(* (2) per function: no static object, no allocation, for every input *)
Theorem C12_strcpy_s : forall c d dmax s destbos, plain (strcpy_s c d dmax s destbos).
Proof. intros. unfold strcpy_s. walk. Qed.
Theorem C12_strcat_s : forall c d dmax s destbos, plain (strcat_s c d dmax s destbos).
Proof. intros. unfold strcat_s. walk. Qed.
Theorem C12_strncpy_s : forall c d dmax s slen destbos srcbos, plain (strncpy_s c d dmax s slen destbos srcbos).
Proof. intros. unfold strncpy_s. walk. Qed.
Theorem C12_strncat_s : forall c d dmax s slen destbos srcbos, plain (strncat_s c d dmax s slen destbos srcbos).
Proof. intros. unfold strncat_s. walk. Qed.
Theorem C12_wcscpy_s : forall c d dmax s destbos, plain (wcscpy_s c d dmax s destbos).
Proof. intros. unfold wcscpy_s. walk. Qed.
Theorem C12_strnlen_s : forall c str smax bos, plain (strnlen_s c str smax bos).
Proof. intros. unfold strnlen_s. walk. Qed.
Theorem C12_mem_copy_family : forall c w rmax ub ovl code clr d dmax s slen destbos srcbos,
  plain (mem_copy_gen c w rmax ub ovl code clr d dmax s slen destbos srcbos).
Proof. intros. unfold mem_copy_gen. walk. Qed.
Theorem C12_memset_s : forall c d dmax v n destbos, plain (memset_s c d dmax v n destbos).
Proof. intros. unfold memset_s. walk. Qed.
Theorem C12_memsetw_s : forall c w rmaxw d dmax v n destbos, plain (memsetw_s c w rmaxw d dmax v n destbos).
Proof. intros. unfold memsetw_s. walk. Qed.
Theorem C12_memzerow_s : forall c w d len destbos, plain (memzerow_s c w d len destbos).
Proof. intros. unfold memzerow_s. walk. Qed.
Print Assumptions C12_mem_copy_family.
Theorem C12_plain_no_static : forall (A : Type) (p : prog A), plain p -> C12_holds p.
Proof. intros A p H. apply C12_from_no_static. exact (plain_no_static p H). Qed.
Print Assumptions C12_plain_no_static.

(* composed: two strcpy_s calls on pairwise disjoint operands, any schedule *)
Theorem C12_two_strcpy_s : forall c d1 n1 s1 d2 n2 s2 (sch : list bool) m,
  0 <= n1 -> 0 <= n2 ->
  (forall a, (ext d2 n2 a) -> ~ (ext s1 n1 a \/ ext d1 n1 a) /\ ~ ext d1 n1 a) ->
  (forall a, ext d1 n1 a -> ~ (ext s2 n2 a \/ ext d2 n2 a)) ->
  match inter sch (strcpy_s c d1 n1 s1 BOS_UNKNOWN) (strcpy_s c d2 n2 s2 BOS_UNKNOWN) m, runm (strcpy_s c d1 n1 s1 BOS_UNKNOWN) m with
  | Some (a, b, m'), Some (a0, m1) =>
      match runm (strcpy_s c d2 n2 s2 BOS_UNKNOWN) m1 with Some (b0, m2) => a = a0 /\ b = b0 /\ meq m' m2 | None => False end
  | _, _ => False
  end.
Proof.
  intros c d1 n1 s1 d2 n2 s2 sch m H1 H2 D1 D2.
  apply (inter_seq (fun a => ext s1 n1 a \/ ext d1 n1 a) (ext d1 n1) (fun a => ext s2 n2 a \/ ext d2 n2 a) (ext d2 n2)).
  - split; assumption.
  - intros x. unfold ext. lia.
  - apply fp_from_footprints; [apply C12_strcpy_s|apply strcpy_s_reads_in|apply strcpy_s_writes; lia].
  - apply fp_from_footprints; [apply C12_strcpy_s|apply strcpy_s_reads_in|apply strcpy_s_writes; lia].
Qed.
Print Assumptions C12_two_strcpy_s.

(* (3) the inventory of writable static objects of the freshly compiled library (regenerated every run) *)
Theorem C12_inventory_ok : inventory_ok known_finding_statics inventory = true.
Proof. vm_compute. reflexivity. Qed.
Print Assumptions C12_inventory_ok.
