(* Utf8.v -- C15: the UTF-8 codec as the C library of the test platform implements it for the scalar range
   used here (1..4 byte forms, no overlong forms, no surrogates), with the round-trip law on each of the four
   ranges by arithmetic (put together in Properties_C15.C15_decode_encode). *)
From Coq Require Import List ZArith Lia Bool.
From SC Require Import CombProofs.
Import ListNotations.
Local Open Scope Z_scope.

Definition is_surrogate (cp : Z) : bool := (0xD800 <=? cp) && (cp <=? 0xDFFF).
Definition enc_valid (cp : Z) : bool := (0 <=? cp) && (cp <? 0x200000) && negb (is_surrogate cp).
Definition enc_len (cp : Z) : Z := if cp <? 0x80 then 1 else if cp <? 0x800 then 2 else if cp <? 0x10000 then 3 else 4.
Definition utf8_enc (cp : Z) : list Z :=
  if cp <? 0x80 then [cp]
  else if cp <? 0x800 then [0xC0 + cp / 64; 0x80 + cp mod 64]
  else if cp <? 0x10000 then [0xE0 + cp / 4096; 0x80 + (cp / 64) mod 64; 0x80 + cp mod 64]
  else [0xF0 + cp / 262144; 0x80 + (cp / 4096) mod 64; 0x80 + (cp / 64) mod 64; 0x80 + cp mod 64].
Definition is_cont (b : Z) : bool := (0x80 <=? b) && (b <=? 0xBF).
(* decode from up to four available bytes; result: code point and length, or None (invalid) *)
Definition utf8_dec (b0 b1 b2 b3 : Z) : option (Z * Z) :=
  if b0 <? 0x80 then Some (b0, 1)
  else if b0 <? 0xC2 then None
  else if b0 <? 0xE0 then (if is_cont b1 then Some ((b0 - 0xC0) * 64 + (b1 - 0x80), 2) else None)
  else if b0 <? 0xF0 then
    (if is_cont b1 && is_cont b2 then
       let cp := (b0 - 0xE0) * 4096 + (b1 - 0x80) * 64 + (b2 - 0x80) in
       if (cp <? 0x800) || is_surrogate cp then None else Some (cp, 3)
     else None)
  else if b0 <? 0xF8 then
    (if is_cont b1 && is_cont b2 && is_cont b3 then
       let cp := (b0 - 0xF0) * 262144 + (b1 - 0x80) * 4096 + (b2 - 0x80) * 64 + (b3 - 0x80) in
       if cp <? 0x10000 then None else Some (cp, 4)
     else None)
  else None.

Local Ltac Zify.zify_post_hook ::= Z.div_mod_to_equations.

Lemma rt1 cp b1 b2 b3 : 0 <= cp < 0x80 -> utf8_dec cp b1 b2 b3 = Some (cp, 1).
Proof. intros H. unfold utf8_dec. tests. reflexivity. Qed.
Lemma rt2 cp b2 b3 : 0x80 <= cp < 0x800 -> utf8_dec (0xC0 + cp / 64) (0x80 + cp mod 64) b2 b3 = Some (cp, 2).
Proof. intros H. unfold utf8_dec, is_cont. tests. cbn [andb orb negb]. f_equal. f_equal. lia. Qed.
Lemma rt3 cp b3 : 0x800 <= cp < 0x10000 -> is_surrogate cp = false ->
  utf8_dec (0xE0 + cp / 4096) (0x80 + (cp / 64) mod 64) (0x80 + cp mod 64) b3 = Some (cp, 3).
Proof.
  intros H Hs. unfold utf8_dec, is_cont. tests. cbn [andb orb negb].
  replace ((0xE0 + cp / 4096 - 0xE0) * 4096 + (0x80 + (cp / 64) mod 64 - 0x80) * 64 + (0x80 + cp mod 64 - 0x80)) with cp by lia.
  rewrite Hs. tests. reflexivity.
Qed.
Lemma rt4 cp : 0x10000 <= cp < 0x200000 ->
  utf8_dec (0xF0 + cp / 262144) (0x80 + (cp / 4096) mod 64) (0x80 + (cp / 64) mod 64) (0x80 + cp mod 64) = Some (cp, 4).
Proof.
  intros H. unfold utf8_dec, is_cont. tests. cbn [andb orb negb].
  replace ((0xF0 + cp / 262144 - 0xF0) * 262144 + (0x80 + (cp / 4096) mod 64 - 0x80) * 4096 + (0x80 + (cp / 64) mod 64 - 0x80) * 64 + (0x80 + cp mod 64 - 0x80)) with cp by lia.
  tests. reflexivity.
Qed.

(* [utf8_dec] on the bytes of a list, missing bytes read as 0 *)
Definition dec_list (l : list Z) : option (Z * Z) :=
  match l with
  | [a] => utf8_dec a 0 0 0 | [a; b] => utf8_dec a b 0 0 | [a; b; c] => utf8_dec a b c 0 | [a; b; c; d] => utf8_dec a b c d
  | _ => None
  end.

(* [Local] does not confine [::=]: taken off again, or every importer's lia would eliminate div and mod *)
Ltac Zify.zify_post_hook ::= idtac.
