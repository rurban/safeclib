(* Cfg.v -- build configuration record, error codes, size constants. *)
From Coq Require Import ZArith Lia.
Local Open Scope Z_scope.

Record cfg := mkCfg {
  null_slack : bool;       (* SAFECLIB_STR_NULL_SLACK *)
  rmax_str : Z;            (* RSIZE_MAX_STR *)
  rmax_mem : Z;            (* RSIZE_MAX_MEM *)
  rmax_wstr : Z;           (* RSIZE_MAX_WSTR *)
  rmax_mem16 : Z;
  rmax_mem32 : Z;
  tok_delim_max : Z;       (* STRTOK_DELIM_MAX_LEN *)
  wchar_w : Z              (* sizeof(wchar_t) *)
}.

Definition wf_cfg (c : cfg) : Prop :=
  0 < rmax_str c /\ 0 < rmax_mem c /\ 0 < rmax_wstr c /\ 0 < rmax_mem16 c /\ 0 < rmax_mem32 c /\
  0 < tok_delim_max c /\ (wchar_w c = 4 \/ wchar_w c = 2) /\ rmax_str c < 2 ^ 62 /\ rmax_mem c < 2 ^ 62.
Lemma wchar_w_pos c : wf_cfg c -> 0 < wchar_w c.
Proof. intros (_ & _ & _ & _ & _ & _ & [H|H] & _); lia. Qed.

Definition EOK := 0.
Definition ESNULLP := 400.
Definition ESZEROL := 401.
Definition ESLEMIN := 402.
Definition ESLEMAX := 403.
Definition ESOVRLP := 404.
Definition ESEMPTY := 405.
Definition ESNOSPC := 406.
Definition ESUNTERM := 407.
Definition ESNODIFF := 408.
Definition ESNOTFND := 409.
Definition ESLEWRNG := 410.
Definition EOVERFLOW := 75.
Definition EINVAL := 22.
Definition ERANGE := 34.
Definition EILSEQ := 84.
Definition BOS_UNKNOWN := 18446744073709551615.   (* (size_t)-1 *)
Definition SIZE_MOD := 18446744073709551616.

(* name/value table compared with the headers by the Consts translator *)
Definition errcodes_model : list Z :=
  (EOK :: ESNULLP :: ESZEROL :: ESLEMIN :: ESLEMAX :: ESOVRLP :: ESEMPTY :: ESNOSPC :: ESUNTERM ::
   ESNODIFF :: ESNOTFND :: ESLEWRNG :: EOVERFLOW :: EINVAL :: ERANGE :: EILSEQ :: nil).

(* default configuration used in examples (the real one is generated: Gen/Consts.v) *)
Definition cfg_default : cfg := mkCfg true 4096 268435456 1024 134217728 67108864 16 4.
Definition cfg_noslack : cfg := mkCfg false 4096 268435456 1024 134217728 67108864 16 4.
Lemma wf_cfg_default : wf_cfg cfg_default.
Proof. unfold wf_cfg; cbn; lia. Qed.
Lemma wf_cfg_noslack : wf_cfg cfg_noslack.
Proof. unfold wf_cfg; cbn; lia. Qed.
