(* FmtEngineProofs.v -- C11: the printf-engine model stores nothing at or beyond bufsize and fails with negative codes only
   (sink_ok, one invariant through its layers); the C standard's rendering of integer conversions (spec_int), where the
   engine agrees with it and where it does not. *)
From Coq Require Import List ZArith Bool Lia.
From SC Require Import FmtEngine.
Import ListNotations.
Local Open Scope Z_scope.

Definition digit_val (c : Z) : Z := if c <? 58 then c - 48 else if c <? 91 then c - 65 + 10 else c - 97 + 10.
Fixpoint eval_lsf (base : Z) (l : list Z) : Z :=      (* least significant first *)
  match l with [] => 0 | c :: t => digit_val c + base * eval_lsf base t end.
Lemma digit_val_char up d : 0 <= d < 16 -> digit_val (digit_char up d) = d.
Proof.
  intros H. unfold digit_val, digit_char.
  repeat match goal with |- context [if ?c then _ else _] => destruct c eqn:? end; lia.
Qed.
Lemma quot_below base v f : 2 <= base -> 0 <= v < base ^ Z.of_nat (S f) -> 0 <= v / base < base ^ Z.of_nat f.
Proof.
  intros Hb Hv. rewrite Nat2Z.inj_succ, Z.pow_succ_r in Hv by lia.
  split; [apply Z.div_pos|apply Z.div_lt_upper_bound]; lia.
Qed.
Lemma digits_value fuel : forall up base v, 2 <= base <= 16 -> 0 <= v < base ^ Z.of_nat fuel ->
  eval_lsf base (digits_from fuel up base v) = v.
Proof.
  induction fuel as [|f IH]; intros up base v Hb Hv; [cbn in *; lia|].
  pose proof (Z.mod_pos_bound v base ltac:(lia)). pose proof (Z.div_mod v base ltac:(lia)).
  cbn [digits_from eval_lsf]. rewrite digit_val_char by lia.
  destruct (v / base =? 0) eqn:E.
  - apply Z.eqb_eq in E. cbn [eval_lsf]. lia.
  - rewrite IH by (try apply quot_below; lia). lia.
Qed.
Lemma digits_nonempty fuel up base v : (0 < fuel)%nat -> digits_from fuel up base v <> [].
Proof. destruct fuel; [lia|]. intros _. cbn [digits_from]. discriminate. Qed.
Lemma digits_length fuel : forall up base v, (length (digits_from fuel up base v) <= fuel)%nat.
Proof. induction fuel as [|f IH]; intros; cbn [digits_from length]; [lia|]. destruct (_ =? _); cbn [length]; [lia|]. specialize (IH up base (v / base)). lia. Qed.
Lemma digits_from_fuel up base : 2 <= base -> forall f g v, (0 < f <= g)%nat -> 0 <= v < base ^ Z.of_nat f ->
  digits_from g up base v = digits_from f up base v.
Proof.
  intros Hb. induction f as [|f IH]; intros g v Hfg Hv; [lia|]. destruct g as [|g]; [lia|].
  cbn [digits_from]. destruct (v / base =? 0) eqn:E; [reflexivity|]. apply Z.eqb_neq in E.
  pose proof (quot_below base v f Hb Hv) as Hq. f_equal. apply IH; [|exact Hq].
  destruct f; [cbn in Hq|]; lia.
Qed.

Definition fin_neg (f : option fin) : Prop := match f with Some (FErr r _ _) => r < 0 | _ => True end.
(* what every step of the engine from output o to result r keeps: nothing stored at or beyond bufsize, error codes negative.
   The bound on o is a premise of the first half only: no layer lemma needs a hypothesis, and the second half holds of
   every o, as C11_errors_negative wants it *)
Definition sink_ok (bufsize : Z) (o : list Z) (r : list Z * option fin) : Prop :=
  (Z.of_nat (length o) <= bufsize -> Z.of_nat (length (fst r)) <= bufsize) /\ fin_neg (snd r).
Lemma sink_stop bufsize o e : fin_neg (Some e) -> sink_ok bufsize o (o, Some e).
Proof. intros H. split; [trivial|exact H]. Qed.
Lemma sink_trans bufsize o o' r : sink_ok bufsize o (o', None) -> sink_ok bufsize o' r -> sink_ok bufsize o r.
Proof. intros [H _] [H' N]. split; [auto|exact N]. Qed.
Lemma puts_ok bufsize : forall cs o, sink_ok bufsize o (puts bufsize cs o).
Proof.
  induction cs as [|c t IH]; intros o; cbn [puts]; [split; [trivial|exact I]|].
  destruct (Z.of_nat (length o) <? bufsize) eqn:E; [|now apply sink_stop].
  apply sink_trans with (c :: o); [|apply IH]. split; [cbn [fst length]; lia|exact I].
Qed.
Lemma put_ok bufsize c o : sink_ok bufsize o (put bufsize c o).
Proof. exact (puts_ok bufsize [c] o). Qed.
Lemma defer_ok bufsize o r rest : sink_ok bufsize o r -> sink_ok bufsize o (defer r rest).
Proof. destruct r as [o' [[| ret h l |]|]]; trivial. Qed.
(* for a claim that does not depend on the values a let binds: unfold would copy each of ntoa's buffers into every later one *)
Lemma let_elim {A B} (P : B -> Prop) (a : A) (b : A -> B) : (forall x, P (b x)) -> P (let x := a in b x).
Proof. intros H. apply H. Qed.
Ltac forget_let := match goal with |- ?P (let x := ?a in @?b x) => refine (let_elim P a b _); intro end.
(* whatever safec_ntoa_format builds, safec_out_rev is puts *)
Lemma ntoa_ok bufsize o v neg base prec width fl : sink_ok bufsize o (ntoa bufsize o v neg base prec width fl).
Proof.
  cbv beta delta [ntoa]. repeat forget_let.
  destruct (2147483614 <? _); [now apply sink_stop|apply puts_ok].
Qed.
Lemma directive_ok bufsize l args o : sink_ok bufsize o (fst (fst (directive bufsize l args o))).
Proof.
  unfold directive.
  (* which flags, width, precision and length were parsed does not matter: their scrutinees are taken whole *)
  destruct (parse_flags l f0) as [fl l1].
  destruct (match l1 with [] => _ | _ :: _ => _ end) as [[[[width fl1] l2] args1] okw].
  destruct (match l2 with [] => _ | _ :: _ => _ end) as [[[[prec fl2] l3] args2] okp].
  destruct (negb (okw && okp)); [now apply sink_stop|].
  destruct (match l3 with [] => _ | _ :: _ => _ end) as [[fl3 l4] lenerr].
  (* the decision tree of the conversion: every leaf stops, or emits through put, puts or ntoa *)
  repeat match goal with
  | |- sink_ok _ _ (fst (fst (if ?c then _ else _))) => destruct c
  | |- sink_ok _ _ (fst (fst (match ?a with _ => _ end))) => destruct a
  end; cbn [fst]; auto using puts_ok, put_ok, defer_ok, ntoa_ok; now apply sink_stop.
Qed.
Lemma engine_ok bufsize : forall fuel l args o,
  sink_ok bufsize o (e_out (engine fuel bufsize l args o), Some (e_fin (engine fuel bufsize l args o))).
Proof.
  induction fuel as [|f IH]; intros l args o; cbn [engine]; [now apply sink_stop|].
  destruct l as [|c t]; [now apply sink_stop|].
  destruct (c =? 37).
  - pose proof (directive_ok bufsize t args o) as D.
    destruct (directive bufsize t args o) as [[[o' [e|]] l'] args']; [exact D|exact (sink_trans _ _ _ _ D (IH _ _ _))].
  - pose proof (put_ok bufsize c o) as D.
    destruct (put bufsize c o) as [o' [e|]]; [exact D|exact (sink_trans _ _ _ _ D (IH _ _ _))].
Qed.

Lemma overlay_length : forall init text, length (overlay init text) = length init.
Proof. induction init as [|a i IH]; intros [|c t]; cbn [overlay length]; try reflexivity. rewrite IH. reflexivity. Qed.
Lemma set_nth_length : forall l n v, length (set_nth l n v) = length l.
Proof. induction l as [|a t IH]; intros [|n] v; cbn [set_nth length]; try reflexivity. rewrite IH. reflexivity. Qed.
Lemma zero_from_length l n : length (zero_from l n) = length l.
Proof. unfold zero_from. rewrite app_length, firstn_length, repeat_length. lia. Qed.
Theorem vsnprintf_dest_length slack rmax init fmt args : length (w_dest (vsnprintf_s_m slack rmax init fmt args)) = length init.
Proof.
  unfold vsnprintf_s_m. destruct (_ =? 0); [reflexivity|]. destruct (rmax <? _); [reflexivity|]. destruct (find_pn fmt 0); [reflexivity|].
  destruct (e_fin _) as [|ret h last0|]; [| |reflexivity]; destruct slack; try destruct last0; cbn [w_dest];
    rewrite ?zero_from_length, ?set_nth_length, ?overlay_length, ?repeat_length; reflexivity.
Qed.
Theorem vsprintf_dest_length slack rmax init fmt args : length (w_dest (vsprintf_s_m slack rmax init fmt args)) = length init.
Proof.
  unfold vsprintf_s_m. destruct (_ && _); [|apply vsnprintf_dest_length]. cbn [w_dest]. destruct slack; [apply repeat_length|].
  rewrite set_nth_length. apply vsnprintf_dest_length.
Qed.

Lemma overlay_firstn : forall init text, (length text <= length init)%nat -> firstn (length text) (overlay init text) = text.
Proof. induction init as [|a i IH]; intros [|c t] H; cbn [overlay length firstn] in *; try reflexivity; [lia|]. rewrite IH by lia. reflexivity. Qed.
Lemma set_nth_firstn : forall l n v k, (k <= n)%nat -> firstn k (set_nth l n v) = firstn k l.
Proof. induction l as [|a t IH]; intros [|n] v [|k] H; cbn [set_nth firstn]; try reflexivity; try lia. rewrite IH by lia. reflexivity. Qed.
Lemma set_nth_nth : forall l n k v d, (k < length l)%nat -> nth k (set_nth l n v) d = if Nat.eqb n k then v else nth k l d.
Proof. induction l as [|a t IH]; intros [|n] [|k] v d H; cbn [set_nth nth length Nat.eqb] in *; try lia; try reflexivity. apply IH. lia. Qed.
Lemma zero_from_firstn l n : (n <= length l)%nat -> firstn n (zero_from l n) = firstn n l.
Proof. intros H. unfold zero_from. rewrite firstn_app, firstn_firstn, firstn_length, Nat.min_id. replace (n - _)%nat with 0%nat by lia. apply app_nil_r. Qed.
Lemma zero_from_nth l n d : (n < length l)%nat -> nth n (zero_from l n) d = 0.
Proof.
  intros H. unfold zero_from. rewrite app_nth2; rewrite firstn_length; [|lia].
  replace (n - _)%nat with 0%nat by lia. destruct (length l - n)%nat eqn:E; [lia|reflexivity].
Qed.
Theorem vsnprintf_count slack rmax init fmt args : let r := vsnprintf_s_m slack rmax init fmt args in
  w_known r = true -> 0 <= w_ret r ->
  let text := rev (e_out (run_engine (Z.of_nat (length init)) fmt args)) in
  w_ret r = Z.of_nat (length text) /\ w_ret r <= Z.of_nat (length init) /\
  (w_ret r < Z.of_nat (length init) -> firstn (length text) (w_dest r) = text /\ nth (length text) (w_dest r) 1 = 0).
Proof.
  cbv zeta. unfold vsnprintf_s_m, ESZEROL, ESLEMAX, EINVAL.
  destruct (_ =? 0); [cbn; lia|]. destruct (rmax <? _); [cbn; lia|]. destruct (find_pn fmt 0); [cbn; lia|].
  destruct (engine_ok (Z.of_nat (length init)) (S (length fmt)) fmt args []) as [B N]. specialize (B ltac:(cbn; lia)).
  fold (run_engine (Z.of_nat (length init)) fmt args) in B, N. cbn [fst snd] in B, N.
  set (E := run_engine (Z.of_nat (length init)) fmt args) in *.
  set (text := rev (e_out E)). assert (Ht : length text = length (e_out E)) by apply rev_length. rewrite <- Ht in B.
  destruct (e_fin E) as [|ret h last0|]; cbn [w_ret w_known w_dest]; intros K R; try discriminate; [|cbn in N; lia].
  split; [reflexivity|]. split; [exact B|]. intros Hlt.
  replace (Nat.ltb (length text) (length init)) with true by (symmetry; apply Nat.ltb_lt; lia).
  destruct slack.
  - split.
    + rewrite zero_from_firstn by (rewrite set_nth_length, overlay_length; lia).
      rewrite set_nth_firstn by lia. apply overlay_firstn. lia.
    + apply zero_from_nth. rewrite set_nth_length, overlay_length. lia.
  - split.
    + rewrite !set_nth_firstn by lia. apply overlay_firstn. lia.
    + rewrite !set_nth_nth, Nat.eqb_refl by (rewrite ?set_nth_length, overlay_length; lia). destruct (Nat.eqb _ _); reflexivity.
Qed.

Fixpoint digits_msf (fuel : nat) (up : bool) (base v : Z) : list Z :=
  match fuel with
  | O => []
  | S f => (if v / base =? 0 then [] else digits_msf f up base (v / base)) ++ [digit_char up (v mod base)]
  end.
Lemma digits_rev fuel : forall up base v, rev (digits_from fuel up base v) = digits_msf fuel up base v.
Proof. induction fuel as [|f IH]; intros; cbn [digits_from digits_msf rev]; [reflexivity|]. destruct (_ =? 0); cbn [rev]; [reflexivity|]. rewrite IH. reflexivity. Qed.
(* C17 7.21.6.1: sign, prefix, zeros up to the precision, digits; '0' flag pads with zeros after sign/prefix unless '-' or a precision is given;
   then spaces to the width, on the left unless '-' *)
Definition spec_int (value : Z) (negative : bool) (base prec width : Z) (fl : flags) : list Z :=
  let digs := if f_prec fl && (prec =? 0) && (value =? 0) then [] else digits_msf 64 (f_upper fl) base value in
  let zeros := repeat 48 (Z.to_nat (prec - Z.of_nat (length digs))) in
  let num := zeros ++ digs in
  let prefix := if f_hash fl && (base =? 16) && negb (value =? 0) then [48; if f_upper fl then 88 else 120]
                else if f_hash fl && (base =? 8) && (match num with 48 :: _ => false | _ => true end) then [48] else [] in
  let sign := if negative then [45] else if f_plus fl then [43] else if f_space fl then [32] else [] in
  let body := sign ++ prefix ++ num in
  let n := Z.of_nat (length body) in
  if f_left fl then body ++ spaces (width - n)
  else if f_zero fl && negb (f_prec fl) then sign ++ prefix ++ repeat 48 (Z.to_nat (width - n)) ++ num
  else spaces (width - n) ++ body.
(* what ntoa emits when everything fits *)
Definition ntoa_text (value : Z) (negative : bool) (base prec width : Z) (fl : flags) : list Z :=
  rev (fst (ntoa 1000000 [] value negative base prec width fl)).
(* the plain conversions (no flag, width or precision): the engine and the C rendering agree for every value below base ^ 31
   (every value of 64 bits in bases 8, 10, 16).  31 = NTOA_BUF - 1: ntoa appends the sign only to fewer than 32 characters *)
Definition plain (up : bool) := mkF false false false false false up false false false false false false.
Lemma puts_all bufsize : forall cs o, Z.of_nat (length o + length cs) <= bufsize -> puts bufsize cs o = (rev cs ++ o, None).
Proof.
  induction cs as [|c t IH]; intros o H; cbn [puts rev app]; [reflexivity|].
  cbn [length] in H. destruct (Z.of_nat (length o) <? bufsize) eqn:E; [|lia].
  rewrite IH by (cbn [length]; lia). rewrite <- app_assoc. reflexivity.
Qed.
Lemma repeat_nonpos (c n : Z) : n <= 0 -> repeat c (Z.to_nat n) = [].
Proof. intros H. replace (Z.to_nat n) with 0%nat by lia. reflexivity. Qed.
Theorem plain_conversion_agrees : forall up base v neg, 2 <= base <= 16 -> 0 <= v < base ^ 31 ->
  ntoa_text v neg base 0 0 (plain up) = spec_int v neg base 0 0 (plain up).
Proof.
  intros up base v neg Hb Hv.
  assert (F : forall g, (31 <= g)%nat -> digits_from g up base v = digits_from 31 up base v)
    by (intros; apply digits_from_fuel; lia || exact Hv).
  pose proof (digits_length 31 up base v) as HD.
  (* lazy: the flags prune ntoa's branches before its buffers are copied into one another *)
  unfold ntoa_text, spec_int. lazy beta zeta iota delta [ntoa plain f_hash f_prec f_left f_zero f_upper f_plus f_space andb orb negb Z.eqb].
  change (2147483614 <? 0) with false. cbv iota.
  rewrite <- digits_rev, (F 32%nat), (F 64%nat) by lia. set (D := digits_from 31 up base v) in *.
  unfold pad_to, spaces, NTOA_BUF. rewrite !repeat_nonpos, !app_nil_r by lia.
  replace (Z.of_nat (length D) <? 32) with true by lia.
  destruct neg; cbn [app]; rewrite puts_all by (rewrite rev_length, ?app_length; cbn [length]; lia);
    cbn [fst]; rewrite app_nil_r, rev_involutive, ?rev_app_distr; reflexivity.
Qed.

(* the deviations recorded as findings, as facts about the model (each witness replayed on the implementation by the check) *)
Definition fl_of (left plus space hash zero hasprec up : bool) := mkF zero left plus space hash up false false false false hasprec false.
Example left_precision_refuted : ntoa_text 256 false 16 6 0 (fl_of true false false false false true true) <> spec_int 256 false 16 6 0 (fl_of true false false false false true true).
Proof. vm_compute. discriminate. Qed.
Example hash_width_refuted : ntoa_text 4660 false 16 0 4 (fl_of false false false true false false false) <> spec_int 4660 false 16 0 4 (fl_of false false false true false false false).
Proof. vm_compute. discriminate. Qed.
Example hash_octal_precision_refuted : ntoa_text 1 false 8 6 0 (fl_of false false false true false true false) <> spec_int 1 false 8 6 0 (fl_of false false false true false true false).
Proof. vm_compute. discriminate. Qed.
Example buffer32_refuted : ntoa_text 1 false 10 40 0 (fl_of false false false false false true false) <> spec_int 1 false 10 40 0 (fl_of false false false false false true false).
Proof. vm_compute. discriminate. Qed.
(* the same engine agrees with the standard on representative flag combinations (computation; not a universal claim) *)
Example flags_agree_sample :
  forallb (fun t => let '(v, neg, base, prec, width, fl) := t in
                    if list_eq_dec Z.eq_dec (ntoa_text v neg base prec width fl) (spec_int v neg base prec width fl) then true else false)
    [(42, false, 10, 0, 8, fl_of false true false false false false false); (42, true, 10, 0, 8, fl_of false false false false true false false);
     (255, false, 16, 0, 0, fl_of false false false true false false true); (7, false, 8, 3, 6, fl_of false false true false false true false);
     (0, false, 10, 0, 0, fl_of false false false false false true false); (12345, false, 10, 8, 12, fl_of false false false false false true false)] = true.
Proof. vm_compute. reflexivity. Qed.
