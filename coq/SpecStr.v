(* SpecStr.v -- the copy loop and the bodies of the copy / concatenate functions: complete outcome
   (PropStr.outcome) and read extent, for every placement, width, direction, with and without slen. *)
From Coq Require Import ZArith Lia Bool.
From SC Require Import Base Wp Cfg Comb CombProofs CopySpec PropStr.
Local Open Scope Z_scope.
Local Open Scope prog_scope.

(* dmax is usable: at least 1, and within the object when its size is known, else within the RSIZE limit *)
Definition usable (rmax bytes_per : Z) (dmax destbos : Z) : Prop :=
  1 <= dmax /\ ((destbos = BOS_UNKNOWN /\ dmax <= rmax) \/ (destbos <> BOS_UNKNOWN /\ dmax * bytes_per <= destbos)).

Lemma usable_unknown rmax bytes_per dmax : 1 <= dmax <= rmax -> usable rmax bytes_per dmax BOS_UNKNOWN.
Proof. intros H. split; [|left]; lia. Qed.

Definition is_str (w : Z) (m : mem) (s L : Z) : Prop :=
  0 <= L /\ (forall j, 0 <= j < L -> load m w (s + j * w) <> 0) /\ load m w (s + L * w) = 0.

Lemma is_str_ends w m s L sl : is_str w m s L -> src_ends w false m s sl L.
Proof. intros (HL & Hnz & Hz). repeat split; auto. discriminate. Qed.

Lemma chk_dest_str_ok c d dmax destbos (k : unit -> prog Z) :
  d <> 0 -> usable (rmax_str c) 1 dmax destbos -> chk_dest_str c d dmax destbos k = k tt.
Proof. intros Hd (H1 & [[-> Hr]|[Hn Hr]]); unfold chk_dest_str; tests; reflexivity. Qed.
Lemma chk_dest_wstr_ok c d dmax destbos (k : unit -> prog Z) :
  d <> 0 -> usable (rmax_wstr c) (wchar_w c) dmax destbos -> chk_dest_wstr c d dmax destbos k = k tt.
Proof. intros Hd (H1 & [[-> Hr]|[Hn Hr]]); unfold chk_dest_wstr; tests; reflexivity. Qed.

Section CopyLoop.
  Variables (c : cfg) (w : Z) (fwd : bool) (od odmax bumper : Z) (use_slen : bool).
  Hypothesis Hw : 0 < w.
  Hypothesis Hod : 1 <= odmax.
  Notation elem m a := (load m w a).
  Notation loop := (copy_loop c w fwd od odmax bumper use_slen).

  (* [src_ends] as far as the loop can tell: it stops at the bumper after g elements, and in the
     backward direction the source beyond that point is overwritten as the copy proceeds *)
  Definition src_upto (g : Z) (m : mem) (s sl t : Z) : Prop :=
    0 <= t /\ (forall j, 0 <= j < t -> j < g -> elem m (s + j * w) <> 0) /\
    (use_slen = true -> t <= sl) /\ (t < g -> elem m (s + t * w) = 0 \/ (use_slen = true /\ sl = t)).

  Lemma src_ends_upto g m s sl t : src_ends w use_slen m s sl t -> src_upto g m s sl t.
  Proof. intros (Ht & Hnz & Hsl & Hend). repeat split; auto. Qed.

  Lemma src_upto_step d s g m v sl t : sep w fwd bumper d s g -> 1 <= t ->
    src_upto g m s sl t -> src_upto (g - 1) (store m w d v) (s + w) (sl - 1) (t - 1).
  Proof.
    intros Hsep Ht (_ & Hnz & Hsl & Hend).
    assert (E : forall j, 0 <= j < g - 1 -> elem (store m w d v) (s + w + j * w) = elem m (s + (j + 1) * w)).
    { intros j Hj. replace (s + w + j * w) with (s + (j + 1) * w) by lia. apply (sep_src w fwd bumper Hw d s g); auto; lia. }
    repeat split; [lia| | |].
    - intros j Hj Hjg. rewrite E by lia. apply Hnz; lia.
    - intros Hu. specialize (Hsl Hu). lia.
    - intros Htg. rewrite E by lia. replace (t - 1 + 1) with t by lia.
      destruct Hend as [?|[? ?]]; [lia|auto|right; split; auto; lia].
  Qed.

  (* number of source elements read when nothing stops the copy early: up to and including the
     terminator, but not the element at index slen when slen ends the copy *)
  Definition rd_count (sl t : Z) : Z := if use_slen && (sl =? t) then t else t + 1.

  Lemma ended_outcome m s P n g m' : P + n = odmax -> 1 <= n -> 1 <= g ->
    (forall a, m' a = if null_slack c then fill m (od + P * w) (n * w) 0 a else store m w (od + P * w) 0 a) ->
    outcome c w m od odmax s P n g 0 EOK m'.
  Proof.
    intros Hn Hn1 Hg Hm'. split; [intros _ _|split; intros; lia]. split; [reflexivity|].
    unfold exact_result, slack_clean. rewrite Z.add_0_r.
    assert (Hz : elem m' (od + P * w) = 0).
    { apply load_zero. intros x Hx. rewrite Hm'. destruct (null_slack c); [apply fill_in; nia|apply store_zero_byte; lia]. }
    repeat split; [lia|intros; lia|exact Hz| |].
    - intros a Ha. rewrite Hm'. destruct (null_slack c); [apply fill_out|apply store_out]; lia.
    - destruct (null_slack c); intros a Ha; rewrite Hm'; [apply fill_in|apply store_out]; lia.
  Qed.

  Lemma outcome_step m s P n g t ch r m' : 1 <= t ->
    let m1 := store m w (od + P * w) ch in
    elem m1 (od + P * w) = elem m s ->
    (forall j, 1 <= j < t -> t < g -> elem m1 (s + j * w) = elem m (s + j * w)) ->
    outcome c w m1 od odmax (s + w) (P + 1) n (g - 1) (t - 1) r m' ->
    outcome c w m od odmax s P (Z.succ n) g t r m'.
  Proof.
    intros Ht m1 Hd Hsrc (A & B & C). split; [|split; intros; [apply B|apply C]; lia].
    intros Hg Hn. destruct A as (Hr & (Hlt & Hcp & Hz & Hlow) & Hsl); try lia.
    assert (Hout : forall a, a < od + P * w \/ od + (P + 1) * w <= a -> m1 a = m a) by (intros a Ha; apply store_out; lia).
    split; [exact Hr|]. split; [repeat split|].
    - lia.
    - intros j Hj. destruct (Z.eq_dec j 0) as [->|Hj0].
      + rewrite Z.add_0_r, Z.mul_0_l, Z.add_0_r, <- Hd. apply load_ext. intros x Hx. apply Hlow. lia.
      + specialize (Hcp (j - 1) ltac:(lia)). replace (P + 1 + (j - 1)) with (P + j) in Hcp by lia. rewrite Hcp.
        replace (s + w + (j - 1) * w) with (s + j * w) by lia. apply Hsrc; lia.
    - replace (P + 1 + (t - 1)) with (P + t) in Hz by lia. exact Hz.
    - intros a Ha. rewrite Hlow, Hout by lia. reflexivity.
    - unfold slack_clean in *. replace (P + 1 + (t - 1)) with (P + t) in Hsl by lia.
      destruct (null_slack c); [exact Hsl|]. intros a Ha. rewrite Hsl, Hout by lia. reflexivity.
  Qed.

  (* the loop with what follows an exit as a parameter: [exit code d] runs after the clearing or the slack fill, d the
     address where the loop stopped.  copy_loop returns the code; stpcpy_s stores it and returns d (SpecExt.v) *)
  Fixpoint copy_loop_k {A} (exit : Z -> Z -> prog A) (n : nat) (d s sl : Z) : prog A :=
    match n with
    | O => handle_error c w od odmax ESNOSPC ;;; exit ESNOSPC d
    | S n' =>
        if (if fwd then d =? bumper else s =? bumper) then handle_error c w od odmax ESOVRLP ;;; exit ESOVRLP d
        else if use_slen && (sl =? 0)
        then (if null_slack c then zero_slack c w d n else Store w d 0 (Ret tt)) ;;; exit EOK d
        else Load w s (fun ch => Store w d ch
               (if ch =? 0 then zero_slack c w d n ;;; exit EOK d
                else copy_loop_k exit n' (d + w) (s + w) (sl - 1)))
    end.

  (* an implication, not an equation of programs: the recursive calls stand under the continuation of a Load, where
     equating them needs functional extensionality *)
  Lemma copy_loop_k_ret R (Q : Z -> mem -> Prop) n : forall d s sl m,
    wpr R (copy_loop_k (fun r _ => Ret r) n d s sl) m Q -> wpr R (loop n d s sl) m Q.
  Proof.
    induction n as [|n IH]; intros d s sl m; cbn [copy_loop copy_loop_k]; [exact (fun H => H)|].
    destruct (if fwd then _ else _); [exact (fun H => H)|]. destruct (use_slen && _); [exact (fun H => H)|].
    cbn [wpr]. intros [Hr H]. split; [exact Hr|]. destruct (_ =? 0); [exact H|apply IH, H].
  Qed.

  (* The loop is at element P of dest (address d) with N = n elements left; the bumper fires after g more, the source
     ends at index t: the parameters of PropStr.outcome.  The exit gets the code and the address e where the loop
     stopped: on success the terminator it wrote. *)
  Theorem copy_loop_k_spec {A} (exit : Z -> Z -> prog A) (R : Z -> Prop) (Q : A -> mem -> Prop) : forall n N P d s sl g t m,
    wf_mem m -> N = Z.of_nat n -> P + N = odmax -> d = od + P * w -> sep w fwd bumper d s g -> src_upto g m s sl t ->
    (forall a, ext s (rd_count sl t * w) a -> R a) ->
    (forall r e m', outcome c w m od odmax s P N g t r m' -> (r = EOK -> e = d + t * w) -> wpr R (exit r e) m' Q) ->
    wpr R (copy_loop_k exit n d s sl) m Q.
  Proof.
    induction n as [|n IH]; intros N P d s sl g t m Hm -> Hn -> Hsep Hsrc HR HQ; cbn [copy_loop_k];
      pose proof Hsrc as (Ht & Hnz & Hsl & Hend); pose proof Hsep as [Hg0 _].
    { apply fail_exit; auto. intros m' Hc. apply HQ; [|discriminate]. repeat split; intros; lia || auto. }
    rewrite Nat2Z.inj_succ in *. rewrite (sep_test w fwd bumper Hw _ s g Hsep).
    destruct (Z.eqb_spec g 0) as [->|Hg].
    { apply fail_exit; auto. intros m' Hc. apply HQ; [|discriminate]. repeat split; intros; lia || auto. }
    set (d := od + P * w) in *.
    destruct (use_slen && (sl =? 0)) eqn:Esl.
    { (* slen exhausted: t = 0 *)
      apply andb_prop in Esl. destruct Esl as [Eu Es]. apply Z.eqb_eq in Es. assert (t = 0) as -> by (specialize (Hsl Eu); lia).
      apply wpr_bind. destruct (null_slack c) eqn:Ens.
      - apply zero_slack_spec; auto. intros m' Hm'. apply HQ; [|lia]. apply ended_outcome; try lia. intros a. rewrite Ens, Hm', Ens, Nat2Z.inj_succ. reflexivity.
      - cbn. apply HQ; [|lia]. apply ended_outcome; try lia. intros a. rewrite Ens. reflexivity. }
    assert (Hrd : 1 <= rd_count sl t).
    { unfold rd_count. destruct (use_slen && (sl =? t)) eqn:E; [|lia]. apply andb_prop in E. destruct E as [Eu Es].
      apply Z.eqb_eq in Es. subst sl. rewrite Eu in Esl. cbn in Esl. apply Z.eqb_neq in Esl. lia. }
    cbn [wpr]. split; [intros x Hx; apply HR; unfold ext; nia|]. set (ch := elem m s). set (m1 := store m w d ch).
    assert (Hd1 : elem m1 d = ch).
    { unfold m1. rewrite load_store_same by lia. apply Z.mod_small, load_range; auto; lia. }
    destruct (Z.eqb_spec ch 0) as [Ech|Ech].
    { (* terminator copied: t = 0 *)
      assert (t = 0) as -> by (destruct (Z.eq_dec t 0); auto; destruct (Hnz 0); try lia; now rewrite Z.mul_0_l, Z.add_0_r).
      apply wpr_bind, zero_slack_spec; auto. intros m' Hm'. apply HQ; [|lia]. apply ended_outcome; try lia. intros a. rewrite Hm'. unfold m1. rewrite Ech, <- Nat2Z.inj_succ.
      destruct (null_slack c); [apply fill_store_in; nia|reflexivity]. }
    (* ordinary element: t >= 1 *)
    assert (Ht1 : 1 <= t).
    { destruct (Z.eq_dec t 0) as [->|]; [|lia]. rewrite Z.mul_0_l, Z.add_0_r in Hend.
      destruct Hend as [E|[Eu E]]; [lia|contradiction|]. subst sl. rewrite Eu in Esl. discriminate. }
    apply (IH (Z.of_nat n) (P + 1) (d + w) (s + w) (sl - 1) (g - 1) (t - 1) m1); try lia.
    - apply wf_store; auto.
    - apply sep_step; auto; lia.
    - apply src_upto_step; auto; lia.
    - intros a Ha. apply HR. revert Ha. unfold ext, rd_count. replace (sl - 1 =? t - 1) with (sl =? t) by (destruct (Z.eqb_spec sl t), (Z.eqb_spec (sl - 1) (t - 1)); lia || reflexivity).
      destruct (use_slen && (sl =? t)); nia.
    - intros r e m' Ho He. apply HQ; [|intros Hr; rewrite (He Hr); lia]. revert Ho. apply outcome_step; auto.
      intros j Hj Htg. apply (sep_src w fwd bumper Hw d s g); auto; lia.
  Qed.

  Corollary copy_loop_spec (R : Z -> Prop) n N P d s sl g t m :
    wf_mem m -> N = Z.of_nat n -> P + N = odmax -> d = od + P * w -> sep w fwd bumper d s g -> src_upto g m s sl t ->
    (forall a, ext s (rd_count sl t * w) a -> R a) ->
    wpr R (loop n d s sl) m (outcome c w m od odmax s P N g t).
  Proof. intros Hm HN Hn Hd Hsep Hsrc HR. apply copy_loop_k_ret, (copy_loop_k_spec _ _ _ n N P d s sl g t); auto. Qed.
End CopyLoop.

(* the two-directional copy that strcpy_s / wcscpy_s / strncpy_s have after their entry checks; ModStr.v writes this text
   out in each of them, and copy_body_spec applies there by conversion *)
Definition copy_body (c : cfg) (w d dmax s : Z) (use_slen : bool) (slen : Z) : prog Z :=
  if d <? s then copy_loop c w true d dmax s use_slen (Z.to_nat dmax) d s slen
  else copy_loop c w false d dmax d use_slen (Z.to_nat dmax) d s slen.

Lemma copy_body_spec c w d dmax s use_slen slen g t m (R : Z -> Prop) :
  0 < w -> 1 <= dmax -> wf_mem m -> Z.abs (s - d) = g * w -> src_ends w use_slen m s slen t ->
  (forall a, ext s (rd_count use_slen slen t * w) a -> R a) ->
  wpr R (copy_body c w d dmax s use_slen slen) m (outcome c w m d dmax s 0 dmax g t).
Proof.
  intros Hw H1 Hm Hg Hsrc HR. unfold copy_body. assert (0 <= g) by nia.
  destruct (Z.ltb_spec d s); apply (copy_loop_spec c w _ d dmax _ use_slen Hw H1 R _ dmax 0); auto using src_ends_upto; unfold sep; lia.
Qed.

(* the same for strcat_s / strncat_s: find the end of dest, then the loop from there *)
Definition cat_body (c : cfg) (w d dmax s : Z) (use_slen : bool) (slen : Z) : prog Z :=
  if d <? s then
    find_end c w true d dmax s (Z.to_nat dmax) d (fun n d' => copy_loop c w true d dmax s use_slen n d' s slen)
  else
    find_end c w false d dmax d (Z.to_nat dmax) d (fun n d' => copy_loop c w false d dmax d use_slen n d' s slen).

(* forward, the scan of dest may itself run into the source (g < P, the gap left for the copy is negative):
   that is the overlap outcome too *)
Lemma cat_body_spec c w d dmax s use_slen slen g P t m (R : Z -> Prop) :
  0 < w -> wf_mem m -> Z.abs (s - d) = g * w -> is_str w m d P -> P < dmax -> src_ends w use_slen m s slen t ->
  (forall a, ext d ((P + 1) * w) a -> R a) -> (forall a, ext s (rd_count use_slen slen t * w) a -> R a) ->
  wpr R (cat_body c w d dmax s use_slen slen) m (outcome c w m d dmax s P (dmax - P) (cat_gap d s g P) t).
Proof.
  intros Hw Hm Hg (HP & Hdnz & Hdz) HPd Hsrc HRd HRs. unfold cat_body, cat_gap. pose proof Hsrc as (Ht & _).
  assert (Hcopy : forall fwd bumper g', sep w fwd bumper (d + P * w) s g' ->
    wpr R (copy_loop c w fwd d dmax bumper use_slen (Z.to_nat dmax - Z.to_nat P) (d + P * w) s slen) m
        (outcome c w m d dmax s P (dmax - P) g' t)).
  { intros fwd bumper g' Hsep.
    apply (copy_loop_spec c w fwd d dmax bumper use_slen Hw ltac:(lia) R _ (dmax - P) P); auto using src_ends_upto; lia. }
  destruct (Z.ltb_spec d s) as [Hlt|Hge].
  - destruct (Z_lt_dec g P) as [Hov|Hov].
    + apply (find_end_ovrlp c w true d dmax s Hw ltac:(lia) R _ _ (Z.to_nat dmax) d g); auto; try lia.
      * intros j Hj. apply Hdnz. lia.
      * intros a Ha. apply HRd. unfold ext in *. nia.
      * intros m' Hc. repeat split; intros; lia || auto.
    + apply (find_end_ok c w true d dmax s Hw _ _ _ (Z.to_nat dmax) d P m ltac:(lia) Hdnz Hdz ltac:(intros _ j Hj; nia)); [auto|].
      apply Hcopy. unfold sep. lia.
  - apply (find_end_ok c w false d dmax d Hw _ _ _ (Z.to_nat dmax) d P m ltac:(lia) Hdnz Hdz ltac:(discriminate)); [auto|].
    apply Hcopy. unfold sep. lia.
Qed.
