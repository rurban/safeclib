(* SpecTok.v -- reference tokeniser (C14): the textbook "maximal delimiter-free substrings"
   and the per-call reference for delimiter sets that change between calls; list level,
   no memory.  Proofs that the two agree for a constant delimiter set. *)
From Coq Require Import List ZArith Lia Bool.
Import ListNotations.
Local Open Scope Z_scope.

Definition isdelim (dl : list Z) (ch : Z) : bool := existsb (Z.eqb ch) dl.

(* maximal prefix whose elements satisfy f, and the rest *)
Fixpoint span (f : Z -> bool) (s : list Z) : list Z * list Z :=
  match s with
  | [] => ([], [])
  | ch :: s' => if f ch then let '(a, b) := span f s' in (ch :: a, b) else ([], s)
  end.

(* the textbook definition: split at delimiters, drop the empty pieces *)
Fixpoint split_at (dl : list Z) (s cur : list Z) : list (list Z) :=
  match s with
  | [] => [rev cur]
  | ch :: s' => if isdelim dl ch then rev cur :: split_at dl s' [] else split_at dl s' (ch :: cur)
  end.
Definition nonempty (t : list Z) : bool := match t with [] => false | _ => true end.
Definition tokens (dl s : list Z) : list (list Z) := filter nonempty (split_at dl s []).

(* one call of the reference: skip delimiters, take the token, consume one delimiter;
   result: None (no token; the whole rest is consumed) or Some (skipped, token, rest after the
   consumed delimiter, whether a delimiter was consumed) *)
Definition ref_call (dl s : list Z) : option (list Z * list Z * list Z * bool) :=
  let '(sk, r1) := span (isdelim dl) s in
  match r1 with
  | [] => None
  | _ :: _ =>
      let '(tok, r2) := span (fun ch => negb (isdelim dl ch)) r1 in
      match r2 with
      | [] => Some (sk, tok, [], false)
      | _ :: r3 => Some (sk, tok, r3, true)
      end
  end.

(* a call sequence with one delimiter set per call *)
Fixpoint ref_seq (dls : list (list Z)) (s : list Z) : list (option (list Z)) :=
  match dls with
  | [] => []
  | dl :: dls' =>
      match ref_call dl s with
      | None => None :: ref_seq dls' []
      | Some (_, tok, rest, _) => Some tok :: ref_seq dls' rest
      end
  end.

Lemma span_spec f s : let '(a, b) := span f s in
  s = a ++ b /\ forallb f a = true /\ match b with [] => True | ch :: _ => f ch = false end.
Proof.
  induction s as [|ch s IH]; cbn; auto. destruct (f ch) eqn:E; [|auto]. destruct (span f s) as [a b].
  destruct IH as (H1 & H2 & H3). cbn. rewrite E, <- H1. auto.
Qed.
Lemma span_length f s : let '(a, b) := span f s in (length a + length b = length s)%nat.
Proof. pose proof (span_spec f s) as H. destruct (span f s) as [a b]. destruct H as (-> & _). now rewrite app_length. Qed.

Lemma isdelim_empty dl ch : nonempty dl = false -> isdelim dl ch = false.
Proof. destruct dl; [reflexivity|discriminate]. Qed.

Lemma ref_call_nil dl : ref_call dl [] = None.
Proof. reflexivity. Qed.
Lemma ref_call_cons dl ch s :
  ref_call dl (ch :: s) =
  if isdelim dl ch
  then match ref_call dl s with
       | None => None
       | Some (sk, tok, rest, b) => Some (ch :: sk, tok, rest, b)
       end
  else let '(t, r2) := span (fun ch => negb (isdelim dl ch)) s in Some ([], ch :: t, tl r2, nonempty r2).
Proof.
  unfold ref_call. cbn [span]. destruct (isdelim dl ch) eqn:E.
  - destruct (span (isdelim dl) s) as [sk [|x r1]]; [reflexivity|]. destruct (span _ (x :: r1)) as [tok [|]]; reflexivity.
  - cbn [span]. rewrite E. cbn [negb]. destruct (span _ s) as [t [|]]; reflexivity.
Qed.

Lemma split_at_span_tok dl : forall s cur,
  let '(tok, r2) := span (fun ch => negb (isdelim dl ch)) s in
  split_at dl s cur = match r2 with
                      | [] => [rev cur ++ tok]
                      | _ :: r3 => (rev cur ++ tok) :: split_at dl r3 []
                      end.
Proof.
  induction s as [|ch s IH]; intros cur; cbn.
  - now rewrite app_nil_r.
  - destruct (isdelim dl ch) eqn:E; cbn.
    + now rewrite app_nil_r.
    + specialize (IH (ch :: cur)). destruct (span _ s) as [tok r2]. rewrite IH. cbn [rev].
      destruct r2; rewrite <- app_assoc; reflexivity.
Qed.
Lemma tokens_ref_call dl s :
  tokens dl s = match ref_call dl s with
                | None => []
                | Some (_, tok, rest, _) => tok :: tokens dl rest
                end.
Proof.
  induction s as [|ch s IH]; [reflexivity|]. rewrite ref_call_cons. unfold tokens in *. cbn [split_at].
  destruct (isdelim dl ch).
  - cbn [filter nonempty]. rewrite IH. destruct (ref_call dl s) as [[[[sk tok] rest] b]|]; reflexivity.
  - pose proof (split_at_span_tok dl s [ch]) as H. destruct (span _ s) as [t r2]. rewrite H. destruct r2; reflexivity.
Qed.

Lemma tokens_nil dl : tokens dl [] = [].
Proof. reflexivity. Qed.

Lemma ref_seq_const dl : forall k s, (length (tokens dl s) <= k)%nat ->
  ref_seq (repeat dl k) s = map Some (tokens dl s) ++ repeat None (k - length (tokens dl s)).
Proof.
  induction k as [|k IH]; intros s Hk.
  - destruct (tokens dl s); [reflexivity|cbn in Hk; lia].
  - cbn [repeat ref_seq]. rewrite (tokens_ref_call dl s) in *. destruct (ref_call dl s) as [[[[sk tok] rest] b]|].
    + cbn [map app length] in *. rewrite IH by lia. reflexivity.
    + cbn [map app length] in *. rewrite IH by (rewrite tokens_nil; cbn; lia). rewrite tokens_nil. cbn.
      now rewrite Nat.sub_0_r.
Qed.

(* dd: the delimiter the call consumes, if any *)
Lemma ref_call_tok dl s sk tok rest b : ref_call dl s = Some (sk, tok, rest, b) ->
  exists dd, s = sk ++ tok ++ dd ++ rest /\ length dd = (if b then 1 else 0)%nat /\ (b = false -> rest = []) /\
    tok <> [] /\ forallb (fun ch => negb (isdelim dl ch)) tok = true /\ forallb (isdelim dl) (sk ++ dd) = true.
Proof.
  unfold ref_call. pose proof (span_spec (isdelim dl) s) as A. destruct (span (isdelim dl) s) as [sk' [|ch r1]]; [discriminate|].
  destruct A as (-> & A2 & A3). pose proof (span_spec (fun ch => negb (isdelim dl ch)) (ch :: r1)) as B.
  cbn [span] in *. rewrite A3 in *. cbn [negb] in *. destruct (span _ r1) as [t r2]. destruct B as (-> & B2 & B3).
  (* A2, B2: sk and the token are runs of delimiters / non-delimiters; A3, B3: what ends them (ch is none, d is one) *)
  destruct r2 as [|d r3]; intros [= <- <- <- <-]; [exists []|exists [d]]; rewrite forallb_app, A2; cbn [forallb];
    rewrite ?(proj1 (negb_false_iff _) B3); repeat split; auto; discriminate.
Qed.
