(* Properties_C10.v -- C10: read-only query functions answer as their standard counterparts do, and never modify
   their operands.  Models in ModQuery.v (tied to the C sources by the correspondence check on every run). *)
From Coq Require Import ZArith Bool Lia.
From SC Require Import Base Wp Cfg CombProofs ModQuery ProofsTs ProofsQuery ProofsQuery2.
Local Open Scope Z_scope.

(* "they never modify their operands": after any call -- valid or not, whatever the arguments and the memory -- every
   byte outside the result cell is what it was (strpbrk_s: when the object size of src is unknown or covers slen) *)
Definition unmodified {A} (p : prog A) (cell : Z -> Prop) : Prop := forall m x, ~ cell x -> snd (fst (exec p m)) x = m x.
Lemma writes_unmodified {A} (p : prog A) (cell : Z -> Prop) : writes_in cell p -> unmodified p cell.
Proof. intros H m x Hx. exact (exec_frame cell p m H x Hx). Qed.
Theorem C10_operands_never_modified : forall c dest dmax src slen ch r db sb,
  unmodified (strcmp_s c dest dmax src r db sb) (ext r 4) /\
  unmodified (strcasecmp_s c dest dmax src r db) (ext r 4) /\
  unmodified (memcmp_s c dest dmax src slen r db sb) (ext r 4) /\
  unmodified (strchr_s c dest dmax ch r db) (ext r 8) /\
  unmodified (strrchr_s c dest dmax ch r db) (ext r 8) /\
  unmodified (memchr_s c dest dmax ch r db) (ext r 8) /\
  unmodified (memrchr_s c dest dmax ch r db) (ext r 8) /\
  unmodified (strspn_s c dest dmax src slen r db sb) (ext r 8) /\
  unmodified (strcspn_s c dest dmax src slen r db sb) (ext r 8) /\
  (sb = BOS_UNKNOWN \/ slen <= sb -> unmodified (strpbrk_s c dest dmax src slen r db sb) (ext r 8)) /\
  unmodified (strprefix_s c dest dmax src db) nowhere /\
  unmodified (strfirstdiff_s c dest dmax src r db) (ext r 8) /\
  unmodified (strfirstsame_s c dest dmax src r db) (ext r 8) /\
  unmodified (wcsnlen_s c dest dmax db) nowhere.
Proof.
  intros. repeat split; try intros Hsb; apply writes_unmodified;
    unfold strcmp_s, strcasecmp_s, memcmp_s, strchr_s, strrchr_s, memchr_s, memrchr_s, memrchr_core, strspn_s, strcspn_s,
      strpbrk_s, strprefix_s, strfirstdiff_s, strfirstsame_s, strfirst_s, wcsnlen_s; walk;
    (* strpbrk_s: the test on srcbos selects a function, not a program *)
    destruct (Z.eqb_spec sb BOS_UNKNOWN); walk.
Qed.
Print Assumptions C10_operands_never_modified.
(* strpbrk_s with a known, too small object size of src reports through handle_str_bos_overflow(dest, destbos): dest IS cleared there *)
Theorem C10_strpbrk_s_clears_dest_refuted : exists c dest dmax src slen r db sb m x,
  ~ ext r 8 x /\ snd (fst (exec (strpbrk_s c dest dmax src slen r db sb) m)) x <> m x.
Proof.
  exists cfg_default, 1000, 4, 2000, 8, 3000, 4, 2, (fun a => if (1000 <=? a) && (a <? 1004) then 97 else 0), 1000.
  split; [unfold ext; lia|]. vm_compute. discriminate.
Qed.
(* memcmp_s on valid operands: EOK and the sign of the first differing byte pair compared as unsigned chars, i.e. memcmp over slen bytes *)
Theorem C10_memcmp_s_is_memcmp : forall c dest dmax src slen diff m, wf_mem m ->
  diff <> 0 -> dest <> 0 -> src <> 0 -> 0 < slen <= dmax -> dmax <= rmax_mem c ->
  (forall i, 0 <= i < slen -> ~ ext diff 4 (dest + i) /\ ~ ext diff 4 (src + i)) ->
  wp (memcmp_s c dest dmax src slen diff BOS_UNKNOWN BOS_UNKNOWN) m (fun r m' =>
     r = EOK /\ load m' 4 diff = i32 (first_diff_sign (Z.to_nat slen) m dest src)).
Proof. intros c dest dmax src slen diff m _. apply memcmp_s_spec. Qed.
Print Assumptions C10_memcmp_s_is_memcmp.
(* memchr_s on valid operands: the position memchr finds among the first dmax bytes, or ESNOTFND and NULL *)
Theorem C10_memchr_s_is_memchr : forall c dest dmax ch resultp m, wf_mem m ->
  resultp <> 0 -> dest <> 0 -> 0 < dmax <= rmax_mem c -> 0 <= ch <= 255 ->
  (forall i, 0 <= i < dmax -> ~ ext resultp 8 (dest + i)) -> 0 < dest -> dest + dmax <= 18446744073709551616 ->
  wp (memchr_s c dest dmax ch resultp BOS_UNKNOWN) m (fun r m' =>
     let f := first_byte (Z.to_nat dmax) m dest ch in
     load m' 8 resultp = f /\ r = (if f =? 0 then ESNOTFND else EOK)).
Proof. intros c dest dmax ch resultp m _ Hr _. apply memchr_s_spec, Hr. Qed.
Print Assumptions C10_memchr_s_is_memchr.
(* non-vacuity: a concrete valid call *)
Example C10_memcmp_example :
  let m := fun a => if a =? 1000 then 97 else if a =? 1001 then 200 else if a =? 2000 then 97 else if a =? 2001 then 98 else 0 in
  let '(r, m', _) := exec (memcmp_s cfg_default 1000 2 2000 2 3000 BOS_UNKNOWN BOS_UNKNOWN) m in
  r = EOK /\ load m' 4 3000 = 1.
Proof. vm_compute. split; reflexivity. Qed.

(* strprefix_s: EOK iff src is not empty and every src character before its terminator, among the first dmax, equals the
   dest character at that index (is_prefix, characterised by is_prefix_spec); the operands are not modified *)
Theorem C10_strprefix_s : forall c dest dmax src m, dest <> 0 -> src <> 0 -> 0 < dmax <= rmax_str c ->
  wp (strprefix_s c dest dmax src BOS_UNKNOWN) m (fun r m' =>
     m' = m /\ r = (if m src =? 0 then ESNOTFND else if is_prefix (Z.to_nat dmax) m dest src then EOK else ESNOTFND)).
Proof.
  intros c dest dmax src m Hd Hs Hm. unfold strprefix_s. rewrite chk_max_ovr_ok by lia. tests. cbn [wp]. rewrite load1.
  destruct (m src =? 0); cbn [wp]; [split; reflexivity|]. apply prefix_loop_wp. split; reflexivity.
Qed.
Print Assumptions C10_strprefix_s.
Theorem C10_is_prefix_meaning : forall n m d s,
  is_prefix n m d s = true <->
  (forall j, 0 <= j < Z.of_nat n -> (forall i, 0 <= i <= j -> m (s + i) <> 0) -> m (d + j) = m (s + j)).
Proof. exact is_prefix_spec. Qed.
Print Assumptions C10_is_prefix_meaning.
(* strfirstdiff_s (same = false) / strfirstsame_s (same = true): EOK and *resultp = the first index below dmax, before either
   terminator, where the characters differ / agree (first_idx, characterised below); otherwise ESNODIFF / ESNOTFND and 0 *)
Theorem C10_strfirst_s : forall same c dest dmax src resultp m,
  resultp <> 0 -> dest <> 0 -> src <> 0 -> 0 < dmax <= rmax_str c -> dmax < 18446744073709551616 ->
  (forall j, 0 <= j <= dmax -> ~ ext resultp 8 (dest + j) /\ ~ ext resultp 8 (src + j)) ->
  wp (strfirst_s same c dest dmax src resultp BOS_UNKNOWN) m (fun r m' =>
     match first_idx same (Z.to_nat dmax) m dest src 0 with
     | Some k => r = EOK /\ load m' 8 resultp = k /\ 0 <= k < dmax
     | None => r = nf same /\ load m' 8 resultp = 0
     end /\ forall x, ~ ext resultp 8 x -> m' x = m x).
Proof. exact strfirst_s_spec. Qed.
Print Assumptions C10_strfirst_s.
Theorem C10_first_idx_found : forall same n m d s i k, first_idx same n m d s i = Some k ->
  i <= k < i + Z.of_nat n /\ m (d + (k - i)) <> 0 /\ m (s + (k - i)) <> 0 /\
  Bool.eqb (m (d + (k - i)) =? m (s + (k - i))) same = true /\
  forall j, 0 <= j < k - i -> m (d + j) <> 0 /\ m (s + j) <> 0 /\ Bool.eqb (m (d + j) =? m (s + j)) same = false.
Proof. exact first_idx_some. Qed.
Print Assumptions C10_first_idx_found.
Theorem C10_first_idx_not_found : forall same n m d s i, first_idx same n m d s i = None ->
  exists t, 0 <= t <= Z.of_nat n /\ (t = Z.of_nat n \/ m (d + t) = 0 \/ m (s + t) = 0) /\
  forall j, 0 <= j < t -> m (d + j) <> 0 /\ m (s + j) <> 0 /\ Bool.eqb (m (d + j) =? m (s + j)) same = false.
Proof. exact first_idx_none. Qed.
Print Assumptions C10_first_idx_not_found.
Example C10_strfirstdiff_example :
  let m := fun a => if a =? 1000 then 97 else if a =? 1001 then 98 else if a =? 1002 then 99 else
                    if a =? 2000 then 97 else if a =? 2001 then 98 else if a =? 2002 then 120 else 0 in
  first_idx false 8 m 1000 2000 0 = Some 2 /\ is_prefix 2 m 1000 2000 = true /\ is_prefix 8 m 1000 2000 = false.
Proof. vm_compute. repeat split; reflexivity. Qed.

