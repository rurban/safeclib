(* AllocModel.v -- C20: allocation skeletons of the allocating library paths (which requests are made,
   what is checked, what is freed on which exit) and the trace predicate "no NULL use, no leak, failure
   reported"; proved or refuted for every failure oracle in Properties_C20.v. *)
From Coq Require Import List ZArith.
From SC Require Import Base Cfg.
Import ListNotations.
Local Open Scope Z_scope.
Local Open Scope prog_scope.

Definition null_page (a : Z) : bool := (0 <=? a) && (a <? 4096).
Definition null_use (e : ev) : bool :=
  match e with ERead a n | EWrite a n => null_page a && (0 <? n) | _ => false end.
Fixpoint live_after (tr : list ev) (live : list Z) : list Z :=
  match tr with
  | [] => live
  | EAlloc _ r :: t => live_after t (if r =? 0 then live else r :: live)
  | EFree p :: t => live_after t (if p =? 0 then live else remove Z.eq_dec p live)
  | _ :: t => live_after t live
  end.
Definition some_alloc_failed (tr : list ev) : bool := existsb (fun e => match e with EAlloc _ 0 => true | _ => false end) tr.
Definition reported (tr : list ev) : bool := existsb is_handler tr.
(* last clause: after a failed request the result indicates failure (negative, or a positive error code) *)
Definition alloc_ok (r : Z) (tr : list ev) : bool :=
  negb (existsb null_use tr)
  && (match live_after tr [] with [] => true | _ => false end)
  && (if some_alloc_failed tr then negb (r =? 0) && reported tr else true).
Definition C20_holds (p : prog Z) : Prop :=
  forall fail m, let '(r, st) := run fail p (w0 m) in alloc_ok r (rev (wtr st)) = true.

(* engine, %ls: p = malloc(l+1); if (!p) report (the code passed is the literal 1), return -1; err = wcstombs_s(p);
   if (err) report, return err [p not freed]; if (no space) { report; free(p); return } ; output loop (may fail:
   free(op), return rc); free(op) *)
Definition sk_ls (l : Z) (conv_err nospace out_err : bool) : prog Z :=
  Alloc (l + 1) (fun p =>
    if p =? 0 then Handler HStr 1 (Ret (-1))
    else Fill p (l + 1) 0 (                                   (* wcstombs_s writes into p *)
      if conv_err then Handler HStr EILSEQ (Ret EILSEQ)      (* returns without free(p) *)
      else if nospace then Handler HStr ESNOSPC (Free p (Ret (- ESNOSPC)))
      else Load 1 p (fun _ => if out_err then Free p (Ret (-1)) else Free p (Ret l)))).
(* the same with the missing free(p) added: what the repaired code would be *)
Definition sk_ls_repaired (l : Z) (conv_err nospace out_err : bool) : prog Z :=
  Alloc (l + 1) (fun p =>
    if p =? 0 then Handler HStr 1 (Ret (-1))
    else Fill p (l + 1) 0 (
      if conv_err then Handler HStr EILSEQ (Free p (Ret EILSEQ))
      else if nospace then Handler HStr ESNOSPC (Free p (Ret (- ESNOSPC)))
      else Load 1 p (fun _ => if out_err then Free p (Ret (-1)) else Free p (Ret l)))).
(* engine, %Lf / %Le / %Lg / %La / %a followed by more format text: s = malloc(off+1); memcpy(s, ...); s[off] = 0; ...; free(s) *)
Definition sk_longdouble (off src : Z) : prog Z :=
  Alloc (off + 1) (fun s => Move s src off (Store 1 (s + off) 0 (Load 1 s (fun _ => Free s (Ret off))))).
(* wide printf family, no-space probe for dmax >= 512: tmp = malloc(dmax * 4); vswprintf(tmp, ...); free(tmp); report ESNOSPC *)
Definition sk_wprobe (dmax : Z) : prog Z :=
  Alloc (dmax * 4) (fun tmp => Fill tmp (dmax * 4) 0 (Free tmp (Handler HStr ESNOSPC (Ret (- ESNOSPC))))).
(* wcsicmp_s: the two fold buffers; wcsfc_s(NULL, ...) reports ESNULLP before any store *)
Definition fold_into (d sz : Z) (err : bool) : prog Z :=
  if d =? 0 then Handler HStr ESNULLP (Ret ESNULLP)
  else Fill d (2 * sz) 0 (if err then Handler HStr ESNOSPC (Ret ESNOSPC) else Ret EOK).
Definition sk_wcsicmp (sz1 sz2 : Z) (e1 e2 : bool) : prog Z :=
  Alloc (2 * sz1) (fun d1 =>
    rc1 <- fold_into d1 sz1 e1 ;;
    if negb (rc1 =? 0) then Free d1 (Ret rc1)
    else Alloc (2 * sz2) (fun d2 =>
      rc2 <- fold_into d2 sz2 e2 ;;
      if negb (rc2 =? 0) then Free d1 (Free d2 (Ret rc2))
      else Load 4 d1 (fun _ => Load 4 d2 (fun _ => Free d1 (Free d2 (Ret EOK)))))).

Lemma run_oracle_ext {A} (f g : nat -> bool) (p : prog A) : (forall k, f k = g k) -> forall w, run f p w = run g p w.
Proof. intros E. induction p; cbn; intros; auto. rewrite E. destruct (g (wn w)); auto. Qed.
(* the oracle with its answers to the first two requests made explicit.  No skeleton here makes a third request,
   so once the two answers are given the run is a closed evaluation; [lazy], because the trace predicate never
   forces the memory, whose contents and sizes are variables. *)
Lemma run_two_answers {A} fail (p : prog A) w :
  run fail p w = run (fun k => match k with O => fail O | S O => fail 1%nat | _ => fail k end) p w.
Proof. apply run_oracle_ext. intros [|[|k]]; reflexivity. Qed.

(* when no request fails the two unchecked paths are fine (concrete instances) *)
Example sk_longdouble_nofail_ok : let '(r, st) := run nofail (sk_longdouble 3 5000) (w0 (fun _ => 0)) in alloc_ok r (rev (wtr st)) = true.
Proof. lazy. reflexivity. Qed.
Example sk_wprobe_nofail_ok : let '(r, st) := run nofail (sk_wprobe 600) (w0 (fun _ => 0)) in alloc_ok r (rev (wtr st)) = true.
Proof. lazy. reflexivity. Qed.
