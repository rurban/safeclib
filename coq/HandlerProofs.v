(* HandlerProofs.v -- refinement: for every finite history the implementation model answers
   exactly as the history-based specification. *)
From Coq Require Import List Arith Bool.
From SC Require Import HandlerModel.
Import ListNotations.

Definition inv (s : hstate) (past : list op) : Prop :=
  (forall k, glob s k = as_slot (last_glob k past)) /\
  (forall k t, thrd s k t = as_slot (last_thrd k t past)).

Lemma kind_eqb_sym a b : kind_eqb a b = kind_eqb b a.
Proof. destruct a, b; reflexivity. Qed.
Lemma as_slot_reg h : as_slot (Some h) = reg h.
Proof. destruct h; reflexivity. Qed.

(* histories are kept oldest first and the functions recurse from the old end, so reason with snoc;
   the tests are written as [step] writes them, the queried kind and thread first *)
Lemma last_glob_snoc k past o :
  last_glob k (past ++ [o]) =
  match o with
  | OSet k' _ h => if kind_eqb k k' then Some h else last_glob k past
  | _ => last_glob k past
  end.
Proof.
  induction past as [|p past IH]; cbn.
  - destruct o; try reflexivity. rewrite kind_eqb_sym. destruct (kind_eqb _ _); reflexivity.
  - rewrite IH. destruct o; try reflexivity. destruct (kind_eqb _ _); reflexivity.
Qed.

(* the test inside HandlerModel.last_thrd, under a name (last_thrd_snoc folds it) *)
Definition spawned (t : nat) (l : list op) : bool :=
  existsb (fun o' => match o' with OSpawn _ c => Nat.eqb c t | _ => false end) l.

Lemma spawned_snoc t past o : spawned t (past ++ [o]) = spawned t past || match o with OSpawn _ c => Nat.eqb c t | _ => false end.
Proof. unfold spawned. rewrite existsb_app. cbn. rewrite orb_false_r. reflexivity. Qed.

Lemma last_thrd_snoc k t past o :
  last_thrd k t (past ++ [o]) =
  match o with
  | OThrdSet k' t' h => if kind_eqb k k' && Nat.eqb t t' then Some h else last_thrd k t past
  | OSpawn _ c => if Nat.eqb t c then None else last_thrd k t past
  | _ => last_thrd k t past
  end.
Proof.
  induction past as [|p past IH].
  - cbn. destruct o as [k0 t0 h|k0 t0 h|k0 t0|pa c|t0]; try reflexivity.
    + rewrite kind_eqb_sym, (Nat.eqb_sym t0). destruct (_ && _); reflexivity.
    + rewrite Nat.eqb_sym. destruct (Nat.eqb _ _); reflexivity.
  - cbn [app last_thrd]. rewrite IH. fold (spawned t (past ++ [o])). fold (spawned t past). rewrite spawned_snoc.
    destruct o as [k0 t0 h|k0 t0 h|k0 t0|pa c|t0]; try (rewrite orb_false_r; reflexivity).
    + destruct (kind_eqb k k0 && Nat.eqb t t0); [reflexivity|]. rewrite orb_false_r. reflexivity.
    + rewrite (Nat.eqb_sym c). destruct (Nat.eqb t c); [rewrite orb_true_r|rewrite orb_false_r]; reflexivity.
Qed.

Lemma inv_init : inv h_init [].
Proof. split; intros; reflexivity. Qed.

Lemma step_refines s past o : inv s past ->
  snd (step s o) = spec_out past o /\ inv (fst (step s o)) (past ++ [o]).
Proof.
  intros [Hg Ht]. split; [|split].
  - destruct o as [k t h|k t h|k t|pa c|t]; cbn; unfold dispatch_spec; rewrite ?Hg, ?Ht; try reflexivity.
    destruct (last_thrd k t past) as [[n|]|]; cbn; try reflexivity.
    destruct (last_glob k past) as [[n|]|]; reflexivity.
  - intros k'. rewrite last_glob_snoc. destruct o as [k t h|k t h|k t|pa c|t]; cbn; try apply Hg.
    destruct (kind_eqb k' k); [symmetry; apply as_slot_reg|apply Hg].
  - intros k' t'. rewrite last_thrd_snoc. destruct o as [k t h|k t h|k t|pa c|t]; cbn; try apply Ht.
    + destruct (kind_eqb k' k && Nat.eqb t' t); [symmetry; apply as_slot_reg|apply Ht].
    + destruct (Nat.eqb t' c); [reflexivity|apply Ht].
Qed.

Theorem run_refines_spec : forall l s past, inv s past -> run_hist s l = spec_hist past l.
Proof.
  induction l as [|o l IH]; intros s past Hi; cbn; [reflexivity|].
  destruct (step_refines s past o Hi) as [Ho Hi']. destruct (step s o) as [s' r]. cbn in *.
  rewrite Ho. f_equal. apply IH. exact Hi'.
Qed.

Lemma dispatch_snoc_other past k t o :
  match o with
  | OSet k' _ _ => k' <> k
  | OThrdSet k' t' _ => k' <> k \/ t' <> t
  | OSpawn _ c => c <> t
  | _ => True
  end -> dispatch_spec k t (past ++ [o]) = dispatch_spec k t past.
Proof.
  intros H. unfold dispatch_spec. rewrite last_thrd_snoc, last_glob_snoc.
  destruct o as [k0 t0 h|k0 t0 h|k0 t0|pa c|t0]; try reflexivity.
  - destruct (kind_eqb_spec k k0); [congruence|reflexivity].
  - destruct (kind_eqb_spec k k0), (Nat.eqb_spec t t0); try reflexivity. destruct H; congruence.
  - destruct (Nat.eqb_spec t c); [congruence|reflexivity].
Qed.
