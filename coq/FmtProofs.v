(* FmtProofs.v -- C09: what find_pn finds, and the pre-scan of FmtScan.v is sound on simple formats *)
From Coq Require Import List ZArith Lia Bool.
From SC Require Import FmtScan.
Local Open Scope Z_scope.

(* "%n" stands at k; the default 0 of nth is neither character, so this puts k+1 inside l *)
Definition pn_at (l : list Z) (k : nat) : Prop := nth k l 0 = PCT /\ nth (S k) l 0 = CH_n.
Lemma find_pn_none : forall l i k, find_pn l i = None -> ~ pn_at l k.
Proof.
  induction l as [|a t IH]; intros i k H [Ha Hb]; [destruct k; discriminate|].
  cbn [find_pn] in H. destruct t as [|b t']; [destruct k as [|[|k]]; discriminate|].
  destruct ((a =? PCT) && (b =? CH_n)) eqn:E; [discriminate|].
  destruct k as [|k]; [|exact (IH (S i) k H (conj Ha Hb))].
  cbn in Ha, Hb. subst. discriminate.
Qed.
Lemma find_pn_some : forall l i j, find_pn l i = Some j -> (i <= j)%nat /\ pn_at l (j - i).
Proof.
  induction l as [|a t IH]; intros i j H; [discriminate|].
  cbn [find_pn] in H. destruct t as [|b t']; [discriminate|].
  destruct ((a =? PCT) && (b =? CH_n)) eqn:E.
  - inversion H; subst. apply andb_prop in E as [E1 E2]. apply Z.eqb_eq in E1, E2.
    rewrite Nat.sub_diag. split; [lia|split; assumption].
  - destruct (IH (S i) j H) as (Hle & H1). split; [lia|].
    replace (j - i)%nat with (S (j - S i)) by lia. exact H1.
Qed.

Lemma simple_convs_n : forall scanf l, simple scanf l = true -> has_n scanf l = true -> exists k, pn_at l k.
Proof.
  intros scanf. unfold has_n. induction l as [|a t IH]; intros Hs Hn; [discriminate|].
  cbn [simple] in Hs. apply andb_prop in Hs as [Ha Hs].
  assert (St : forall k, pn_at t k -> pn_at (a :: t) (S k)) by (intros k H; exact H).
  cbn [convs] in Hn. destruct (a =? PCT) eqn:Ea; [|destruct (IH Hs Hn) as [k H]; eauto].
  destruct t as [|b t']; [discriminate|].
  apply andb_prop in Ha as [Ha Hb3]. apply andb_prop in Ha as [Hb1 Hb2].
  apply negb_true_iff in Hb1, Hb2, Hb3. cbn [convs] in Hn. rewrite Hb1, Hb3 in Hn.
  cbn [existsb fst snd negb] in Hn. apply orb_prop in Hn as [Hn|Hn].
  - rewrite andb_true_r in Hn. apply Z.eqb_eq in Ea, Hn. exists O. split; assumption.
  - (* b is not '%', so it starts nothing: the conversions of t' are those of b :: t' *)
    destruct (IH Hs) as [k H]; [cbn [convs]; rewrite Hb2; exact Hn|eauto].
Qed.
Lemma simple_no_double_pct : forall scanf l k, simple scanf l = true -> nth k l 0 = PCT -> nth (S k) l 0 <> PCT.
Proof.
  intros scanf. induction l as [|a t IH]; intros k Hs H1 H2; [destruct k; discriminate|].
  cbn [simple] in Hs. apply andb_prop in Hs as [Ha Hs].
  destruct k as [|k]; [|exact (IH k Hs H1 H2)].
  cbn in H1, H2. subst a. destruct t as [|b t']; [discriminate|]. cbn in H2. subst b.
  cbn in Ha. rewrite !andb_false_r in Ha. discriminate.
Qed.

Theorem prescan_sound_on_simple : forall scanf fmt, simple scanf fmt = true ->
  prescan_accepts fmt = true -> has_n scanf fmt = false.
Proof.
  intros scanf fmt Hs Ha. destruct (has_n scanf fmt) eqn:Hn; [|reflexivity]. exfalso.
  destruct (simple_convs_n scanf fmt Hs Hn) as [k Hk].
  unfold prescan_accepts in Ha. destruct (find_pn fmt 0) as [j|] eqn:Ef; [|exact (find_pn_none fmt 0 k Ef Hk)].
  destruct (find_pn_some fmt 0 j Ef) as (_ & J1 & _). rewrite Nat.sub_0_r in J1.
  destruct j as [|j]; [discriminate|]. apply Z.eqb_eq in Ha.
  (* '%' at j and at j+1: impossible in a simple format *)
  exact (simple_no_double_pct scanf fmt j Hs Ha J1).
Qed.
