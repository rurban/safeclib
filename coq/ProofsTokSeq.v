(* ProofsTokSeq.v -- functional correctness of the tokeniser models (C14): one call on a terminated string delivers the
   next reference token (SpecTok.ref_call), overwrites at most the delimiter that ends it, and leaves *ptr / *dmaxp
   describing the rest of the string; hence a call sequence is SpecTok.ref_seq, with a delimiter set per call.
   The loop lemmas are stated for wpr, so that the same inductions bound the loads (C14_strtok_s_reads). *)
From Coq Require Import List ZArith Lia Bool.
From SC Require Import Base Wp Cfg CombProofs ModTok SpecTok.
Import ListNotations.
Local Open Scope Z_scope.
Local Open Scope prog_scope.

Definition zlen (s : list Z) : Z := Z.of_nat (length s).
Definition chars_ok (s : list Z) : Prop := Forall (fun ch => ch <> 0) s.

Lemma zlen_cons ch s : zlen (ch :: s) = zlen s + 1.
Proof. unfold zlen. cbn [length]. lia. Qed.
Lemma zlen_app a b : zlen (a ++ b) = zlen a + zlen b.
Proof. unfold zlen. rewrite app_length. lia. Qed.
Lemma zlen_nonneg s : 0 <= zlen s.
Proof. unfold zlen. lia. Qed.
Lemma chars_ok_cons ch s : chars_ok (ch :: s) <-> ch <> 0 /\ chars_ok s.
Proof. unfold chars_ok. split; [intros H; inversion H; auto|intros [H1 H2]; constructor; auto]. Qed.
Lemma chars_ok_app a b : chars_ok (a ++ b) <-> chars_ok a /\ chars_ok b.
Proof. unfold chars_ok. apply Forall_app. Qed.

Section StrAt.
  Variable w : Z.
  Hypothesis Hw : 0 < w.
  Notation elem m a := (load m w a).

  Definition str_at (m : mem) (p : Z) (s : list Z) : Prop :=
    (forall j, (j < length s)%nat -> elem m (p + Z.of_nat j * w) = nth j s 0) /\
    elem m (p + zlen s * w) = 0.

  Lemma str_at_nil m p : str_at m p [] <-> elem m p = 0.
  Proof. unfold str_at, zlen. cbn. rewrite Z.add_0_r. split; [intros [_ H]; exact H|intros H; split; [intros j Hj; lia|exact H]]. Qed.
  Lemma str_at_cons m p ch s : str_at m p (ch :: s) <-> elem m p = ch /\ str_at m (p + w) s.
  Proof.
    assert (E : forall j, p + Z.of_nat (S j) * w = p + w + Z.of_nat j * w) by lia.
    unfold str_at, zlen. cbn [length]. rewrite E. split.
    - intros [H1 H2]. split; [rewrite <- (Z.add_0_r p); exact (H1 O ltac:(lia))|]. split; [|exact H2].
      intros j Hj. rewrite <- E. apply (H1 (S j)). lia.
    - intros [H0 [H1 H2]]. split; [|exact H2]. intros [|j] Hj; [now rewrite Z.add_0_r|]. rewrite E. apply H1. lia.
  Qed.

  Lemma str_head (R : Z -> Prop) p s : range_in R p ((zlen s + 1) * w) -> range_in R p w.
  Proof. intros H x Hx. apply H. pose proof (zlen_nonneg s). nia. Qed.
  Lemma str_tail (R : Z -> Prop) p ch s : range_in R p ((zlen (ch :: s) + 1) * w) -> range_in R (p + w) ((zlen s + 1) * w).
  Proof. intros H x Hx. apply H. rewrite zlen_cons. lia. Qed.

  Lemma str_at_suffix m p a b : str_at m p (a ++ b) -> str_at m (p + zlen a * w) b.
  Proof.
    revert p. induction a as [|ch a IH]; intros p H; cbn [app] in H.
    - now rewrite Z.add_0_r.
    - apply str_at_cons in H. rewrite zlen_cons. replace (p + (zlen a + 1) * w) with (p + w + zlen a * w) by lia. apply IH, H.
  Qed.
  Lemma str_at_prefix m m' p a b : str_at m p (a ++ b) -> (forall x, p <= x < p + zlen a * w -> m' x = m x) ->
    elem m' (p + zlen a * w) = 0 -> str_at m' p a.
  Proof.
    revert p. induction a as [|ch a IH]; intros p H He Hz; cbn [app] in H.
    - apply str_at_nil. now rewrite Z.add_0_r in Hz.
    - apply str_at_cons in H. rewrite zlen_cons in *. apply str_at_cons. split.
      + rewrite <- (proj1 H). apply load_ext. exact (str_head (fun x => m' x = m x) p a He).
      + apply IH; [apply H| |now replace (p + w + zlen a * w) with (p + (zlen a + 1) * w) by lia].
        intros x Hx. apply He. lia.
  Qed.
  Lemma str_at_ext m m' p s : (forall x, p <= x < p + (zlen s + 1) * w -> m' x = m x) -> str_at m p s -> str_at m' p s.
  Proof.
    intros He H. apply str_at_prefix with (m := m) (b := []); [now rewrite app_nil_r|intros x Hx; apply He; lia|].
    rewrite <- (proj2 H). apply load_ext. intros x Hx. apply He. pose proof (zlen_nonneg s). nia.
  Qed.
End StrAt.

Section Loops.
  Variables (c : cfg) (w : Z) (wide : bool) (dmaxp ptr : Z) (R : Z -> Prop).
  Hypothesis Hw : 0 < w.
  Notation str_at := (str_at w).

  Definition cstr (m : mem) (p : Z) (s : list Z) : Prop :=
    str_at m p s /\ chars_ok s /\ range_in R p ((zlen s + 1) * w).

  (* the head of all three loops: load the current element, leave at the terminator *)
  Lemma loop_nil {A} m d (e : prog A) (k : Z -> prog A) Q : cstr m d [] -> wpr R e m Q ->
    wpr R (Load w d (fun ch => if ch =? 0 then e else k ch)) m Q.
  Proof. intros (Hs & _ & HR) He. apply str_at_nil in Hs. split; [eapply str_head; eauto|]. now rewrite Hs. Qed.
  Lemma loop_cons {A} m d ch s (e : prog A) (k : Z -> prog A) Q : cstr m d (ch :: s) ->
    (cstr m (d + w) s -> wpr R (k ch) m Q) -> wpr R (Load w d (fun x => if x =? 0 then e else k x)) m Q.
  Proof.
    intros (Hs & Hc & HR) Hk. apply str_at_cons in Hs. apply chars_ok_cons in Hc. split; [eapply str_head; eauto|].
    rewrite (proj1 Hs), (proj2 (Z.eqb_neq _ _) (proj1 Hc)). apply Hk. split; [apply Hs|split; [apply Hc|eapply str_tail; eauto]].
  Qed.

  Lemma delim_scan_wp : forall dl n pt ch any m (Q : dres -> mem -> Prop),
    cstr m pt dl -> (length dl <= n)%nat ->
    Q (if isdelim dl ch then DFound else DNot (any || nonempty dl)) m ->
    wpr R (delim_scan w n pt ch any) m Q.
  Proof.
    induction dl as [|d dl IH]; intros n pt ch any m Q Hs Hn HQ.
    - rewrite orb_false_r in HQ. destruct n; apply loop_nil; auto.
    - destruct n as [|n]; [cbn in Hn; lia|]. eapply loop_cons; [exact Hs|]. intros Hs'.
      unfold isdelim in HQ. cbn [existsb] in HQ. fold (isdelim dl ch) in HQ.
      destruct (ch =? d); [exact HQ|]. cbn [orb] in HQ.
      apply IH; auto using le_S_n. destruct (isdelim dl ch); [exact HQ|].
      cbn [nonempty] in HQ. now rewrite orb_true_r in HQ.
  Qed.

  Variables (delim : Z) (dl : list Z).
  Hypothesis Hdn : (length dl <= Z.to_nat (tok_delim_max c))%nat.
  Notation nondelim := (fun ch => negb (isdelim dl ch)).

  (* phase 2 (s: the string from d on; the token began at tok).  The loop leaves at element a: the terminator, or (b) a
     delimiter, which it makes zero and steps over.  Here and in tokskip_wp every stored value enters through an
     equation, written the way tok_post writes it: the inductions carry the equations along by lia. *)
  Lemma tokend_wp : forall s n d tok m (Q : Z -> mem -> Prop),
    cstr m d s -> (length s <= n)%nat -> cstr m delim dl ->
    (let '(t, r2) := span nondelim s in let b := nonempty r2 in
     forall a pv nv, a = d + zlen t * w -> pv = a + (if b then 1 else 0) * w ->
       nv = Z.of_nat (n - length t - (if b then 1 else 0)) ->
       Q tok (store (store (if b then store m w a 0 else m) 8 ptr pv) 8 dmaxp nv)) ->
    wpr R (tokend c w dmaxp ptr delim n d tok) m Q.
  Proof.
    induction s as [|ch s IH]; intros n d tok m Q Hs Hn Hd HQ.
    - destruct n; apply loop_nil; auto; apply (HQ d); unfold zlen; cbn [nonempty length]; lia.
    - destruct n as [|n]; [cbn in Hn; lia|]. eapply loop_cons; [exact Hs|]. intros Hs'.
      apply wpr_bind. apply delim_scan_wp with (dl := dl); auto.
      cbn [span] in HQ. destruct (isdelim dl ch) eqn:E; cbn [negb] in HQ.
      + apply HQ; unfold zlen; cbn [nonempty length]; lia.
      + apply IH; auto using le_S_n. destruct (span nondelim s) as [t r2]. cbv zeta.
        intros; apply HQ; cbn [length]; rewrite ?zlen_cons; lia.
  Qed.

  (* with no delimiters nothing starts a token (src/str/strtok_s.c compares each character with none) *)
  Lemma tokskip_wp : forall s n d m (Q : Z -> mem -> Prop),
    cstr m d s -> (length s <= n)%nat -> cstr m delim dl ->
    match (if nonempty dl then ref_call dl s else None) with
    | None => forall pv nv, pv = d + zlen s * w -> nv = Z.of_nat (n - length s) ->
              Q 0 (store (store m 8 ptr pv) 8 dmaxp nv)
    | Some (sk, tok, rest, b) => forall r a pv nv, r = d + zlen sk * w -> a = r + zlen tok * w ->
              pv = r + (zlen tok + (if b then 1 else 0)) * w ->
              nv = Z.of_nat (n - length sk - length tok - (if b then 1 else 0)) ->
              Q r (store (store (if b then store m w a 0 else m) 8 ptr pv) 8 dmaxp nv)
    end ->
    wpr R (tokskip c w wide dmaxp ptr delim n d) m Q.
  Proof.
    induction s as [|ch s IH]; intros n d m Q Hs Hn Hd HQ.
    - destruct (nonempty dl); cbn in HQ; destruct n; apply loop_nil; auto; apply HQ; unfold zlen; cbn [length]; lia.
    - destruct n as [|n]; [cbn in Hn; lia|]. eapply loop_cons; [exact Hs|]. intros Hs'.
      apply wpr_bind. apply delim_scan_wp with (dl := dl); auto. cbn [orb].
      destruct (nonempty dl) eqn:Hdne; [destruct (isdelim dl ch) eqn:E|rewrite isdelim_empty by exact Hdne].
      + rewrite ref_call_cons, E in HQ. apply IH; auto using le_S_n.
        destruct (ref_call dl s) as [[[[sk tok] rest] b]|]; intros; apply HQ; cbn [length]; rewrite ?zlen_cons; lia.
      + rewrite ref_call_cons, E in HQ. apply tokend_wp with (s := s); auto using le_S_n.
        destruct (span nondelim s) as [t r2]. cbv zeta. intros; apply HQ; unfold zlen in *; cbn [length]; lia.
      + apply IH; auto using le_S_n. intros; apply HQ; cbn [length]; rewrite ?zlen_cons; lia.
  Qed.
End Loops.
Lemma cstr_any w m p s : str_at w m p s -> chars_ok s -> cstr w (fun _ => True) m p s.
Proof. intros Hs Hc. split; [exact Hs|]. split; [exact Hc|]. intros x _. exact I. Qed.

Section TokSeq.
  Variables (c : cfg) (w : Z) (wide : bool) (dmaxp ptr : Z).
  Hypothesis Hw : 0 < w.
  Notation elem m a := (load m w a).
  Notation str_at := (str_at w).

  (* the string lives in [lo, hi); *ptr and *dmaxp are 8-byte cells elsewhere *)
  Variables (lo hi : Z).
  Hypothesis Hlo : 0 <= lo.
  Hypothesis Hhi : hi < 256 ^ 8.
  Hypothesis Hptr : ptr + 8 <= lo \/ hi <= ptr.
  Hypothesis Hdmaxp : dmaxp + 8 <= lo \/ hi <= dmaxp.
  Hypothesis Hcells : ptr + 8 <= dmaxp \/ dmaxp + 8 <= ptr.
  Definition cell (a x : Z) : Prop := a <= x < a + 8.

  (* what the caller holds before a call: *dmaxp = n, the rest of the string s (terminated, strictly
     shorter than n) at p, and p + n elements ends exactly at hi *)
  Variable nmax : Z.   (* the largest length the entry checks accept (RSIZE_MAX_STR / RSIZE_MAX_WSTR) *)
  Record tok_state0 (m : mem) (p : Z) (n : nat) (s : list Z) : Prop := {
    ts_str : str_at m p s;
    ts_chars : chars_ok s;
    ts_len : (length s < n)%nat;
    ts_dmax : load m 8 dmaxp = Z.of_nat n;
    ts_lo : lo <= p;
    ts_hi : p + Z.of_nat n * w = hi;
    ts_max : Z.of_nat n <= nmax
  }.
  (* between two calls *ptr = p as well; before the first call *ptr holds nothing *)
  Definition tok_state (m : mem) (p : Z) (n : nat) (s : list Z) : Prop :=
    tok_state0 m p n s /\ load m 8 ptr = p.

  Definition tok_post (dl : list Z) (m : mem) (p : Z) (n : nat) (s : list Z) (r : Z) (m' : mem) : Prop :=
    match ref_call dl s with
    | None =>
        r = 0 /\ tok_state m' (p + zlen s * w) (n - length s) [] /\
        (forall x, ~ cell ptr x -> ~ cell dmaxp x -> m' x = m x)
    | Some (sk, tok, rest, b) =>
        r = p + zlen sk * w /\ lo <= r /\ r + (zlen tok + 1) * w <= hi /\
        str_at m' r tok /\
        tok_state m' (r + (zlen tok + (if b then 1 else 0)) * w)
                     (n - length sk - length tok - (if b then 1 else 0)) rest /\
        (* only the delimiter that ended the token is overwritten (by a terminator) *)
        (forall x, ~ cell ptr x -> ~ cell dmaxp x ->
                   ~ (b = true /\ r + zlen tok * w <= x < r + zlen tok * w + w) -> m' x = m x)
    end.

  Notation cells m pv nv := (store (store m 8 ptr pv) 8 dmaxp nv).
  Lemma cells_out m1 pv nv x : ~ cell ptr x -> ~ cell dmaxp x -> cells m1 pv nv x = m1 x.
  Proof. unfold cell. intros H1 H2. rewrite !store_out by lia. reflexivity. Qed.
  Lemma cells_ptr m1 pv nv : 0 <= pv < 256 ^ 8 -> load (cells m1 pv nv) 8 ptr = pv.
  Proof. intros H. rewrite load_store_other by lia. rewrite load_store_same by lia. apply Z.mod_small. exact H. Qed.
  Lemma cells_dmaxp m1 pv nv : 0 <= nv < 256 ^ 8 -> load (cells m1 pv nv) 8 dmaxp = nv.
  Proof. intros H. rewrite load_store_same by lia. apply Z.mod_small. exact H. Qed.

  (* tok_state0 without the content of *dmaxp: what a call can rely on while it works, whatever it has stored *)
  Definition buf (m : mem) (p : Z) (n : nat) (s : list Z) : Prop :=
    str_at m p s /\ chars_ok s /\ (length s < n)%nat /\ lo <= p /\ p + Z.of_nat n * w = hi /\ Z.of_nat n <= nmax.

  Lemma buf_bounds m p n s : buf m p n s -> lo <= p /\ p + (zlen s + 1) * w <= hi.
  Proof. intros (_ & _ & Hn & Hl & Hh & _). split; [exact Hl|]. unfold zlen. nia. Qed.
  Lemma buf_suffix m p n a b : buf m p n (a ++ b) -> buf m (p + zlen a * w) (n - length a) b.
  Proof.
    intros (Hs & Hc & Hn & Hl & Hh & Hmx). rewrite app_length in Hn. apply chars_ok_app in Hc. unfold zlen in *.
    split; [apply str_at_suffix; auto|]. split; [apply Hc|]. repeat split; nia.
  Qed.
  Lemma buf_prefix m m' p n a b : buf m p n (a ++ b) -> (forall x, p <= x < p + zlen a * w -> m' x = m x) ->
    elem m' (p + zlen a * w) = 0 -> buf m' p n a.
  Proof.
    intros (Hs & Hc & Hn & H) He Hz. rewrite app_length in Hn. apply chars_ok_app in Hc.
    split; [eapply str_at_prefix; eauto|]. split; [apply Hc|]. split; [lia|exact H].
  Qed.
  Lemma buf_ext m m' p n s : buf m p n s -> (forall x, p <= x < hi -> m' x = m x) -> buf m' p n s.
  Proof.
    intros H He. pose proof (buf_bounds _ _ _ _ H) as [_ Hh]. destruct H as (Hs & H). split; [|exact H].
    eapply str_at_ext; [exact Hw| |exact Hs]. intros x Hx. apply He. lia.
  Qed.
  Lemma buf_stored m p n s pv nv : buf m p n s -> buf (cells m pv nv) p n s.
  Proof. intros H. apply (buf_ext _ _ _ _ _ H). intros x Hx. destruct (buf_bounds _ _ _ _ H). apply cells_out; unfold cell; lia. Qed.
  Lemma buf_cells m p n s : buf m p n s -> tok_state (cells m p (Z.of_nat n)) p n s.
  Proof.
    intros H. destruct (buf_bounds _ _ _ _ H) as [Hl Hh]. pose proof (zlen_nonneg s).
    destruct (buf_stored _ _ _ _ p (Z.of_nat n) H) as (Hs & Hc & Hn & _ & He & Hmx).
    split; [constructor; auto; apply cells_dmaxp|apply cells_ptr]; nia.
  Qed.

  Lemma tok_call_spec dl delim m p n s :
    chars_ok dl -> (length dl <= Z.to_nat (tok_delim_max c))%nat -> nonempty dl = true ->
    str_at m delim dl -> tok_state0 m p n s ->
    wp (tokskip c w wide dmaxp ptr delim n p) m (tok_post dl m p n s).
  Proof.
    intros Hdl Hdn Hdne Hd [Hs Hc Hn _ Hl Hh Hmx]. assert (Hb : buf m p n s) by (unfold buf; auto 7).
    apply wpr_wp with (R := fun _ => True).
    apply tokskip_wp with (dl := dl) (s := s); auto using cstr_any; [lia|].
    rewrite Hdne. unfold tok_post. pose proof (ref_call_tok dl s) as HT.
    destruct (ref_call dl s) as [[[[sk tok] rest] b]|].
    - (* s = sk ++ tok ++ dd ++ rest.  r: start of the token; a: its end, where the 0 goes if a delimiter dd stands there
         (m1: the memory after that store); pv: the saved pointer, past dd.  Hb, Ha': the buffer from r, from a; Ht: m1
         holds tok, terminated, at r.  Then the conjuncts of tok_post in order. *)
      destruct (HT _ _ _ _ eq_refl) as (dd & -> & Hdd & Hrest & _). clear HT Hs Hc Hn.
      rewrite <- Hdd. replace (if b then 1 else 0) with (zlen dd) by (unfold zlen; rewrite Hdd; now destruct b).
      intros r a pv nv Hr Ha Hpv ->. set (m1 := if b then _ else m). assert (Hpa : pv = a + zlen dd * w) by lia.
      apply buf_suffix in Hb. rewrite <- Hr in Hb. pose proof (buf_suffix _ _ _ _ _ Hb) as Ha'. rewrite <- Ha in Ha'.
      assert (Hm1 : forall x, ~ (a <= x < pv) -> m1 x = m x).
      { intros x Hx. unfold m1. destruct b; [apply store_out; unfold zlen in Hpa; rewrite Hdd in Hpa; lia|reflexivity]. }
      assert (Hz : elem m1 a = 0).
      { unfold m1. destruct b; [apply load_store_zero|]. destruct dd; [|discriminate].
        rewrite (Hrest eq_refl) in Ha'. apply str_at_nil, Ha'. }
      assert (Ht : buf m1 r (n - length sk) tok).
      { eapply buf_prefix; [exact Hb|intros x Hx; apply Hm1; lia|rewrite <- Ha; exact Hz]. }
      destruct (buf_bounds _ _ _ _ Ht) as [Hrl Hrh].
      split; [exact Hr|]. split; [exact Hrl|]. split; [exact Hrh|]. split; [apply (buf_stored _ _ _ _ _ _ Ht)|]. split.
      + rewrite <- Hpv. apply buf_cells. apply buf_ext with (m := m); [|intros x Hx; apply Hm1; lia].
        rewrite Hpa. exact (buf_suffix _ _ _ _ _ Ha').
      + intros x H1 H2 H3. rewrite cells_out by assumption. apply Hm1. intros Hx. apply H3. rewrite <- Ha.
        unfold zlen in Hpa. rewrite Hdd in Hpa. destruct b; [split; [reflexivity|]|]; lia.
    - intros pv nv -> ->. split; [reflexivity|]. split; [|intros; apply cells_out; auto].
      rewrite <- (app_nil_r s) in Hb. apply buf_suffix in Hb. apply buf_cells in Hb. exact Hb.
  Qed.
End TokSeq.

Section Entry.
  Variables (c : cfg) (dmaxp ptr : Z).
  (* what the checks before the loops look at: *dmaxp = n, and the string p, passed or saved in *ptr *)
  Definition entry (m : mem) (dest p : Z) (n : nat) : Prop :=
    load m 8 dmaxp = Z.of_nat n /\ (0 < n)%nat /\ p <> 0 /\ (dest = p \/ dest = 0 /\ load m 8 ptr = p).

  Variables (delim : Z) (R : Z -> Prop) (m : mem) (dest p : Z) (n : nat).
  Hypothesis Hdmaxp0 : dmaxp <> 0.
  Hypothesis Hptr0 : ptr <> 0.
  Hypothesis Hdelim0 : delim <> 0.
  Hypothesis HRd : range_in R dmaxp 8.
  Hypothesis HRp : range_in R ptr 8.
  Hypothesis Hentry : entry m dest p n.

  Lemma strtok_s_enter bos Q : Z.of_nat n <= rmax_str c -> (dest = 0 \/ bos = BOS_UNKNOWN \/ Z.of_nat n <= bos) ->
    wpr R (tokskip c 1 false dmaxp ptr delim n p) m Q -> wpr R (strtok_s c dest dmaxp delim ptr bos) m Q.
  Proof.
    destruct Hentry as (Hdm & Hn0 & Hp0 & Hdest). intros Hmax Hbos HQ.
    unfold strtok_s. tests. split; [exact HRd|]. rewrite Hdm, Nat2Z.id. tests.
    destruct Hdest as [->|[-> Hp]].
    - tests. rewrite orb_false_r. destruct (bos =? BOS_UNKNOWN) eqn:E; tests; exact HQ.
    - split; [exact HRp|]. rewrite Hp. tests. rewrite orb_true_r. exact HQ.
  Qed.
  Lemma wcstok_s_enter bos Q : Z.of_nat n <= rmax_wstr c -> (dest = 0 \/ bos = BOS_UNKNOWN \/ Z.of_nat n * wchar_w c <= bos) ->
    wpr R (tokskip c (wchar_w c) true dmaxp ptr delim n p) m Q -> wpr R (wcstok_s c dest dmaxp delim ptr bos) m Q.
  Proof.
    destruct Hentry as (Hdm & Hn0 & Hp0 & Hdest). intros Hmax Hbos HQ.
    unfold wcstok_s. tests. split; [exact HRd|]. rewrite Hdm, Nat2Z.id. tests.
    destruct Hdest as [->|[-> Hp]].
    - tests. rewrite orb_false_r. destruct (bos =? BOS_UNKNOWN) eqn:E; tests; exact HQ.
    - split; [exact HRp|]. rewrite Hp. tests. rewrite orb_true_r. exact HQ.
  Qed.
End Entry.

Lemma Forall2_impl {A B} (R R' : A -> B -> Prop) : (forall a b, R a b -> R' a b) ->
  forall l l', Forall2 R l l' -> Forall2 R' l l'.
Proof. intros H l l' F. induction F; constructor; auto. Qed.
Lemma Forall2_length {A B} (R : A -> B -> Prop) l l' : Forall2 R l l' -> length l = length l'.
Proof. intros F. induction F; cbn; auto. Qed.
Section Sequence.
  Variables (w dmaxp ptr lo hi nmax dmaxlen : Z).
  Hypothesis Hw : 0 < w.
  Hypothesis Hlo : 0 < lo.
  Hypothesis Hptr : ptr + 8 <= lo \/ hi <= ptr.
  Hypothesis Hdmaxp : dmaxp + 8 <= lo \/ hi <= dmaxp.
  Notation st := (tok_state w dmaxp ptr lo hi nmax).
  Notation post := (tok_post w dmaxp ptr lo hi nmax).
  Notation cellp := (cell ptr).
  Notation celld := (cell dmaxp).
  Notation frame m' m p k := (forall x, ~ cellp x -> ~ celld x -> ~ (p <= x < p + k) -> m' x = m x).

  (* a delimiter list in memory: (address, contents), away from the string and the two cells *)
  Definition delim_ok (m : mem) (d : Z * list Z) : Prop :=
    fst d <> 0 /\ chars_ok (snd d) /\ (length (snd d) <= Z.to_nat dmaxlen)%nat /\ nonempty (snd d) = true /\
    str_at w m (fst d) (snd d) /\
    (fst d + (zlen (snd d) + 1) * w <= lo \/ hi <= fst d) /\
    (fst d + (zlen (snd d) + 1) * w <= ptr \/ ptr + 8 <= fst d) /\
    (fst d + (zlen (snd d) + 1) * w <= dmaxp \/ dmaxp + 8 <= fst d).

  Notation st0 := (tok_state0 w dmaxp lo hi nmax).
  Variable f : Z -> Z -> prog Z.    (* f dest delim: one call with the fixed dmaxp, ptr, destbos *)
  (* the first call passes the string (and *ptr is not yet meaningful), the later ones pass NULL *)
  Definition call_state (dest : Z) (m : mem) (p : Z) (n : nat) (s : list Z) : Prop :=
    (dest = p /\ st0 m p n s) \/ (dest = 0 /\ st m p n s).
  Hypothesis Hcall : forall dest m p n s d, delim_ok m d -> call_state dest m p n s ->
    wp (f dest (fst d)) m (post (snd d) m p n s).

  Fixpoint calls (dest : Z) (dps : list Z) : prog (list Z) :=
    match dps with
    | [] => Ret []
    | dp :: r => x <- f dest dp ;; xs <- calls 0 r ;; Ret (x :: xs)
    end.

  (* r against the reference: NULL, or the address of the token, a terminated string inside the buffer *)
  Definition tok_res (m' : mem) (p : Z) (r : Z) (o : option (list Z)) : Prop :=
    match o with
    | None => r = 0
    | Some tok => p <= r /\ r + (zlen tok + 1) * w <= hi /\ str_at w m' r tok
    end.

  Lemma call_state_inv dest m p n s : call_state dest m p n s ->
    st0 m p n s /\ (dest = p \/ dest = 0 /\ load m 8 ptr = p).
  Proof. intros [[-> H]|[-> [H Hp]]]; auto. Qed.

  Lemma delim_ok_ext m m' p s d : p + zlen s * w <= hi -> lo <= p -> frame m' m p (zlen s * w) ->
    delim_ok m d -> delim_ok m' d.
  Proof.
    intros Hph Hpl Hf (H1 & H2 & H3 & H4 & H5 & H6). repeat (split; [assumption|]). split; [|exact H6].
    eapply str_at_ext; [exact Hw| |exact H5]. intros x Hx. apply Hf; unfold cell; lia.
  Qed.

  (* what calls_spec keeps of one call; last conjunct: the result stays valid while later calls change only the bytes of s1 *)
  Lemma tok_post_step dl m p n s r m1 : post dl m p n s r m1 ->
    exists o s1 p1 n1, (forall dls, ref_seq (dl :: dls) s = o :: ref_seq dls s1) /\
      st m1 p1 n1 s1 /\ p <= p1 /\ p1 + zlen s1 * w <= p + zlen s * w /\ frame m1 m p (zlen s * w) /\
      (forall m2, frame m2 m1 p1 (zlen s1 * w) -> tok_res m2 p r o).
  Proof.
    intros Hpost. pose proof (ref_call_tok dl s) as HT. unfold tok_post in Hpost.
    pose proof (zlen_nonneg s) as Hs0. destruct (ref_call dl s) as [[[[sk tok] rest] b]|] eqn:E.
    - destruct Hpost as (Hr & Hrl & Hrh & Htok & Hst1 & Hfr). destruct (HT _ _ _ _ eq_refl) as (dd & Hs & Hdd & Hrest & _).
      pose proof (zlen_nonneg sk). pose proof (zlen_nonneg tok). pose proof (zlen_nonneg rest).
      assert (Hlen : zlen s = zlen sk + zlen tok + (if b then 1 else 0) + zlen rest /\ (b = false -> zlen rest = 0)).
      { rewrite Hs, !zlen_app. unfold zlen at 3. rewrite Hdd. destruct b; split; (discriminate || lia || now rewrite Hrest). }
      destruct Hlen as [Hlen Hrest0]. eexists (Some tok), rest, _, _. split; [intros dls; cbn [ref_seq]; now rewrite E|].
      split; [exact Hst1|]. split; [destruct b; nia|]. split; [destruct b; nia|]. split.
      + intros x Hx1 Hx2 Hx3. apply Hfr; auto. intros [-> Hx]. nia.
      + intros m2 Hfr2. split; [nia|]. split; [exact Hrh|]. eapply str_at_ext; [exact Hw| |exact Htok].
        intros x Hx. apply Hfr2; unfold cell; try lia. destruct b; [lia|]. rewrite (Hrest0 eq_refl). lia.
    - destruct Hpost as (-> & Hst1 & Hfr). eexists None, [], _, _. split; [intros dls; cbn [ref_seq]; now rewrite E|].
      split; [exact Hst1|]. split; [nia|]. split; [cbn; lia|]. split; [auto|]. intros m2 _. reflexivity.
  Qed.

  Lemma calls_spec : forall dps dest m p n s,
    Forall (delim_ok m) dps -> call_state dest m p n s ->
    wp (calls dest (map fst dps)) m (fun rs m' =>
      (forall x, ~ cellp x -> ~ celld x -> ~ (p <= x < p + zlen s * w) -> m' x = m x) /\
      Forall2 (tok_res m' p) rs (ref_seq (map snd dps) s)).
  Proof.
    induction dps as [|d dps IH]; intros dest m p n s Hds Hst.
    - cbn. split; [auto|constructor].
    - cbn [map calls]. inversion Hds as [|? ? Hd Hds']; subst. apply wp_bind.
      eapply wp_weaken; [|apply Hcall; eauto]. intros r m1 Hpost.
      destruct (tok_post_step _ _ _ _ _ _ _ Hpost) as (o & s1 & p1 & n1 & -> & Hst1 & Hp1 & Hp1' & Hfr & Hres).
      destruct (call_state_inv _ _ _ _ _ Hst) as [[_ _ Hn _ Hl Hh _] _].
      apply wp_bind. eapply wp_weaken; [|eapply (IH 0); [|right; split; [reflexivity|exact Hst1]]].
      + intros rs m2 [Hfr2 Hrs]. cbn [wp]. split.
        * intros x H1 H2 H3. rewrite Hfr2, Hfr; auto; lia.
        * constructor; [apply Hres, Hfr2|]. eapply Forall2_impl; [|exact Hrs]. intros a [t|]; cbn [tok_res]; auto.
          intros (H1 & H2); split; [lia|exact H2].
      + eapply Forall_impl; [|exact Hds']. intros d'. apply delim_ok_ext with (p := p) (s := s); auto. unfold zlen in *. nia.
  Qed.
End Sequence.

Section AnyEntry.
  Variables (c : cfg) (w : Z) (wide : bool) (dmaxp ptr lo hi nmax : Z) (f : Z -> Z -> prog Z).
  Hypothesis Hw : 0 < w.
  Hypothesis Hlo : 0 < lo.
  Hypothesis Hhi : hi < 256 ^ 8.
  Hypothesis Hptr : ptr + 8 <= lo \/ hi <= ptr.
  Hypothesis Hdmaxp : dmaxp + 8 <= lo \/ hi <= dmaxp.
  Hypothesis Hcells : ptr + 8 <= dmaxp \/ dmaxp + 8 <= ptr.
  Hypothesis Henter : forall delim m dest p n Q, delim <> 0 -> entry dmaxp ptr m dest p n -> Z.of_nat n <= nmax ->
    wpr (fun _ => True) (tokskip c w wide dmaxp ptr delim n p) m Q -> wpr (fun _ => True) (f dest delim) m Q.

  Theorem tok_sequence dps m p n s :
    Forall (delim_ok w dmaxp ptr lo hi (tok_delim_max c) m) dps -> tok_state0 w dmaxp lo hi nmax m p n s ->
    wp (calls f p (map fst dps)) m (fun rs m' =>
      (forall x, ~ cell ptr x -> ~ cell dmaxp x -> ~ (p <= x < p + zlen s * w) -> m' x = m x) /\
      Forall2 (tok_res w hi m' p) rs (ref_seq (map snd dps) s)).
  Proof.
    intros Hds Hst.
    apply calls_spec with (nmax := nmax) (dmaxlen := tok_delim_max c) (lo := lo) (n := n); auto; [|left; auto].
    intros dest m0 p0 n0 s0 d (H1 & H2 & H3 & H4 & H5 & _) Hcs.
    destruct (call_state_inv _ _ _ _ _ _ _ _ _ _ _ Hcs) as [Hst0 Hdest].
    pose proof Hst0 as [_ _ Hn Hdm Hl _ Hmx]. apply wpr_wp with (R := fun _ => True).
    apply Henter with (p := p0) (n := n0); auto; [repeat split; auto; lia|].
    apply wp_wpr, tok_call_spec; auto; lia.
  Qed.
End AnyEntry.

Section Top.
  Variables (c : cfg) (dmaxp ptr lo hi nmax bos : Z).
  Hypothesis Hlo : 0 < lo.   (* one call (TokSeq) does with 0 <= lo; the entry checks reject a null string *)
  Hypothesis Hhi : hi < 256 ^ 8.
  Hypothesis Hptr : ptr + 8 <= lo \/ hi <= ptr.
  Hypothesis Hdmaxp : dmaxp + 8 <= lo \/ hi <= dmaxp.
  Hypothesis Hcells : ptr + 8 <= dmaxp \/ dmaxp + 8 <= ptr.
  Hypothesis Hptr0 : ptr <> 0.
  Hypothesis Hdmaxp0 : dmaxp <> 0.

  Definition strtok_calls := calls (fun dest delim => strtok_s c dest dmaxp delim ptr bos).
  Definition wcstok_calls := calls (fun dest delim => wcstok_s c dest dmaxp delim ptr bos).

  Theorem strtok_s_sequence :
    nmax <= rmax_str c -> (bos = BOS_UNKNOWN \/ nmax <= bos) ->
    forall dps m p n s,
    Forall (delim_ok 1 dmaxp ptr lo hi (tok_delim_max c) m) dps ->
    tok_state0 1 dmaxp lo hi nmax m p n s ->
    wp (strtok_calls p (map fst dps)) m (fun rs m' =>
      (forall x, ~ cell ptr x -> ~ cell dmaxp x -> ~ (p <= x < p + zlen s * 1) -> m' x = m x) /\
      Forall2 (tok_res 1 hi m' p) rs (ref_seq (map snd dps) s)).
  Proof.
    intros Hn Hb dps m p n s. apply tok_sequence with (c := c) (wide := false) (lo := lo); auto; try lia.
    intros delim m0 dest p0 n0 Q Hd He Hmx. apply strtok_s_enter; auto; try (intros x _; exact I); lia.
  Qed.

  Theorem wcstok_s_sequence :
    0 < wchar_w c -> nmax <= rmax_wstr c -> (bos = BOS_UNKNOWN \/ nmax * wchar_w c <= bos) ->
    forall dps m p n s,
    Forall (delim_ok (wchar_w c) dmaxp ptr lo hi (tok_delim_max c) m) dps ->
    tok_state0 (wchar_w c) dmaxp lo hi nmax m p n s ->
    wp (wcstok_calls p (map fst dps)) m (fun rs m' =>
      (forall x, ~ cell ptr x -> ~ cell dmaxp x -> ~ (p <= x < p + zlen s * wchar_w c) -> m' x = m x) /\
      Forall2 (tok_res (wchar_w c) hi m' p) rs (ref_seq (map snd dps) s)).
  Proof.
    intros Hw Hn Hb dps m p n s. apply tok_sequence with (c := c) (wide := true) (lo := lo); auto; try lia.
    intros delim m0 dest p0 n0 Q Hd He Hmx. apply wcstok_s_enter; auto; try (intros x _; exact I); [lia|].
    right. destruct Hb as [Hb|Hb]; [left; exact Hb|right]. etransitivity; [apply Z.mul_le_mono_nonneg_r; [lia|exact Hmx]|exact Hb].
  Qed.
End Top.

(* a result list against the two parts of SpecTok.ref_seq_const: map Some .., repeat None .. *)
Lemma tok_res_somes w hi m' p ts : forall toks, Forall2 (tok_res w hi m' p) toks (map Some ts) ->
  Forall2 (fun r tok => p <= r /\ r + (zlen tok + 1) * w <= hi /\ str_at w m' r tok) toks ts.
Proof. induction ts as [|t ts IH]; intros toks H; inversion H; subst; constructor; auto. Qed.
Lemma tok_res_nones w hi m' p j : forall nulls, Forall2 (tok_res w hi m' p) nulls (repeat None j) ->
  Forall (fun r => r = 0) nulls.
Proof. induction j as [|j IH]; intros nulls H; inversion H; subst; constructor; auto. Qed.
