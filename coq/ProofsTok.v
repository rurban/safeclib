(* ProofsTok.v -- write footprints and handler reports of the tokeniser loops (what C01 and C05 ask, for C14: the stores and
   reports theorems of Properties_C14.v). *)
From Coq Require Import List ZArith.
From SC Require Import Base Cfg CombProofs ModTok.
Import ListNotations.
Local Open Scope Z_scope.

Global Hint Unfold tok_abort : walk.
Section TokProofs.
  Variables (c : cfg) (w : Z) (wide : bool) (dmaxp ptr delim : Z).
  Hypothesis Hw : 0 < w.

  (* the string may be written from d up to and including the element at index n (the ESUNTERM exits store there: known finding) *)
  Definition tokP (d : Z) (n : nat) : Z -> Prop :=
    fun a => ext ptr 8 a \/ ext dmaxp 8 a \/ ext d ((Z.of_nat n + 1) * w) a.

  Lemma delim_scan_writes P n : forall pt ch any, writes_in P (delim_scan w n pt ch any).
  Proof. induction n as [|n IH]; walk. Qed.
  Lemma delim_scan_noh n : forall pt ch any, no_handler (delim_scan w n pt ch any).
  Proof. induction n as [|n IH]; walk. Qed.
  Hint Resolve delim_scan_writes delim_scan_noh : walk.

  Section Writes.
    Variable P : Z -> Prop.
    Hypothesis (Hptr : range_in P ptr 8) (Hdm : range_in P dmaxp 8).
    Lemma tokend_writes n : forall d tok, range_in P d ((Z.of_nat n + 1) * w) -> writes_in P (tokend c w dmaxp ptr delim n d tok).
    Proof. induction n as [|n IH]; walk. Qed.
    Hint Resolve tokend_writes : walk.
    Lemma tokskip_writes n : forall d, range_in P d ((Z.of_nat n + 1) * w) -> writes_in P (tokskip c w wide dmaxp ptr delim n d).
    Proof. induction n as [|n IH]; walk. Qed.
  End Writes.

  (* every call reports at most once, and returns NULL when it reports *)
  Definition tok_report (hs : list (hkind * Z)) (r : Z) : Prop :=
    hs = [] \/ (r = 0 /\ exists code, code <> 0 /\ hs = [(HStr, code)]).
  Lemma tok_report_none r : tok_report [] r.
  Proof. left. reflexivity. Qed.
  (* [] ++ ..: the form in which hspec presents the report of a Handler node met with acc = [], so that auto applies this *)
  Lemma tok_report_one code : code <> 0 -> tok_report ([] ++ [(HStr, code)]) 0.
  Proof. intros H. right. split; [reflexivity|]. exists code. split; [exact H|reflexivity]. Qed.
  Hint Resolve tok_report_none tok_report_one : walk.
  Lemma tokend_h n : forall d tok, hspec tok_report [] (tokend c w dmaxp ptr delim n d tok).
  Proof. induction n as [|n IH]; walk. Qed.
  Hint Resolve tokend_h : walk.
  Lemma tokskip_h n : forall d, hspec tok_report [] (tokskip c w wide dmaxp ptr delim n d).
  Proof. induction n as [|n IH]; walk. Qed.
End TokProofs.
Global Hint Resolve tok_report_none tok_report_one tokskip_h tokskip_writes tokend_writes : walk.
Global Hint Unfold tokP : rng.

