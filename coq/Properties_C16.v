(* Properties_C16.v -- C16: bsearch_s finds, qsort_s sorts.
   bsearch_s: the halving search, for every element count and every array sorted with respect to the key; the loop of the
   model computes it over a bytewise comparator (at most 4 bytes).
   qsort_s: the smoothsort of src/misc/qsort_s.c is transcribed in ModSort.v (tied to the code by comparing
   the exact sequence of comparator calls and the final arrangement with the implementation on every case).
   Full, for every element count, element type and comparator: permutation, bounds, dependence on signs only.
   Order of the result: every array of at most 7 elements (ProofsSort7.v) -- the unbounded statement (Leonardo-heap
   invariants) is NOT proved: this half is partial. *)
From Coq Require Import List ZArith Lia Permutation.
From SC Require Import Wp ModSearch ProofsSearch ModSort ProofsSort ProofsSort7.
Import ListNotations.
Local Open Scope Z_scope.

Theorem C16_bsearch_found_is_match : forall fuel cmp base nmemb r,
  bsearch_abs fuel cmp base nmemb = Some r -> cmp r = 0 /\ base <= r < base + nmemb.
Proof.
  induction fuel as [|f IH]; intros cmp base nmemb r H; cbn in H; [discriminate|].
  destruct (Z.leb_spec nmemb 0) as [|E0]; [discriminate|].
  pose proof (half_lt nmemb E0). destruct (Z.eqb_spec (cmp (base + nmemb / 2)) 0) as [E1|_].
  - inversion H; subst. split; [exact E1|lia].
  - destruct (nmemb =? 1); [discriminate|].
    destruct (cmp (base + nmemb / 2) <? 0); destruct (IH _ _ _ _ H) as [A B]; (split; [exact A|lia]).
Qed.
Print Assumptions C16_bsearch_found_is_match.
Theorem C16_bsearch_finds_existing : forall fuel cmp base nmemb,
  (Z.to_nat nmemb <= fuel)%nat -> sorted_wrt cmp base (base + nmemb) ->
  (exists i, base <= i < base + nmemb /\ cmp i = 0) -> bsearch_abs fuel cmp base nmemb <> None.
Proof.
  induction fuel as [|f IH]; intros cmp base nmemb Hf Hs (i & Hi & Hz); [lia|].
  cbn. destruct (Z.leb_spec nmemb 0) as [|E0]; [lia|]. pose proof (half_lt nmemb E0).
  destruct (Z.eqb_spec (cmp (base + nmemb / 2)) 0) as [|E1]; [discriminate|].
  destruct (Z.eqb_spec nmemb 1) as [->|E2]; [replace i with (base + 1 / 2) in Hz by (cbn; lia); contradiction|].
  assert (1 <= nmemb / 2) by (apply Z.div_le_lower_bound; lia).
  (* sortedness places i on the side of mid that the loop keeps *)
  destruct (Z.ltb_spec (cmp (base + nmemb / 2)) 0) as [E3|E3]; apply IH; try lia.
  - intros a b Ha Hab Hb. apply Hs; lia.
  - exists i. pose proof (Hs (base + nmemb / 2) i). split; [lia|exact Hz].
  - intros a b Ha Hab Hb. apply Hs; lia.
  - exists i. pose proof (Hs i (base + nmemb / 2)). split; [lia|exact Hz].
Qed.
Print Assumptions C16_bsearch_finds_existing.
Theorem C16_bsearch_probes_inside : forall fuel cmp base nmemb,
  Forall (fun j => base <= j < base + nmemb) (probes fuel cmp base nmemb).
Proof.
  induction fuel as [|f IH]; intros cmp base nmemb; cbn; [constructor|].
  destruct (Z.leb_spec nmemb 0) as [|E0]; [constructor|]. pose proof (half_lt nmemb E0).
  constructor; [lia|]. destruct (cmp (base + nmemb / 2) =? 0); [constructor|]. destruct (nmemb =? 1); [constructor|].
  destruct (cmp (base + nmemb / 2) <? 0); (eapply Forall_impl; [|apply IH]); cbn; intros a Ha; lia.
Qed.
Print Assumptions C16_bsearch_probes_inside.
(* the halving loop of the program model (what bsearch_s runs past its checks) is this abstract search over the bytewise comparator *)
Theorem C16_bsearch_program_is_abstract : forall fuel key b0 size base nmemb m,
  let cmp := fun j => memcmp_val (Z.to_nat (Z.min size 4)) m key (b0 + size * j) in
  wp (bsearch_loop fuel key (b0 + size * base) nmemb size) m (fun r m' =>
     m' = m /\ r = match bsearch_abs fuel cmp base nmemb with Some j => b0 + size * j | None => 0 end).
Proof.
  induction fuel as [|f IH]; intros key b0 size base nmemb m cmp; cbn [bsearch_loop bsearch_abs wp].
  - split; reflexivity.
  - destruct (nmemb <=? 0); [cbn; split; reflexivity|].
    apply wp_bind. apply memcmp_prog_wp.
    replace (b0 + size * base + size * (nmemb / 2)) with (b0 + size * (base + nmemb / 2)) by lia.
    fold (cmp (base + nmemb / 2)). destruct (cmp (base + nmemb / 2) =? 0); [cbn; split; reflexivity|].
    destruct (nmemb =? 1); [cbn; split; reflexivity|].
    destruct (cmp (base + nmemb / 2) <? 0); apply IH.
Qed.
Print Assumptions C16_bsearch_program_is_abstract.

(* every completed run leaves a permutation of the input: nothing lost, duplicated or altered; any comparator *)
Theorem C16_qsort_permutation : forall (A : Type) (cmp : A -> A -> Z) (l l' : list A) (tr : list (Z * Z)),
  smoothsort A cmp l = Some (l', tr) -> Permutation l l' /\ length l' = length l.
Proof. exact smoothsort_perm. Qed.
Print Assumptions C16_qsort_permutation.
(* the model answers None exactly when an element index outside [0, nmemb) would be dereferenced, a bookkeeping
   index (lp[pshift-1]) would be negative, or a loop would not terminate within its bound: it never does,
   for every array, every element count and every comparator (consistent or not) *)
Theorem C16_qsort_stays_inside_array : forall (A : Type) (cmp : A -> A -> Z) (l : list A), smoothsort A cmp l <> None.
Proof. exact smoothsort_total. Qed.
Print Assumptions C16_qsort_stays_inside_array.
(* the comparator is only ever applied to two elements of the array, and the run (comparator calls included)
   depends on them only through the signs reported: mapping the elements and replacing the comparator by one
   that agrees in sign maps the whole run *)
Theorem C16_qsort_run_depends_on_signs_only : forall (A B : Type) (cmpA : A -> A -> Z) (cmpB : B -> B -> Z) (f : A -> B) (l : list A),
  (forall a a', In a l -> In a' l -> (cmpA a a' >=? 0) = (cmpB (f a) (f a') >=? 0) /\ (cmpA a a' <=? 0) = (cmpB (f a) (f a') <=? 0)) ->
  smoothsort B cmpB (map f l) = om (mf2 A B f) (smoothsort A cmpA l).
Proof. exact smoothsort_map. Qed.
Print Assumptions C16_qsort_run_depends_on_signs_only.
(* order, bounded: every array of at most 7 elements, any element type, any comparator that reports the order of a key *)
Theorem C16_qsort_sorted_partial : forall (A : Type) (cmp : A -> A -> Z) (key : A -> Z) (l : list A),
  (forall a b, In a l -> In b l -> (0 <= cmp a b <-> key b <= key a) /\ (cmp a b <= 0 <-> key a <= key b)) ->
  (length l <= 7)%nat ->
  exists l' tr, smoothsort A cmp l = Some (l', tr) /\ Permutation l l' /\ sortedb (map key l') = true.
Proof. exact smoothsort_sorted_small. Qed.
Print Assumptions C16_qsort_sorted_partial.
Example C16_qsort_example :
  option_map fst (smoothsort Z zcmp [5; 3; 8; 1; 9; 2; 7; 7; 0; 4; 6; 3]) = Some [0; 1; 2; 3; 3; 4; 5; 6; 7; 7; 8; 9]
  /\ (forall a b : Z, (0 <= zcmp a b <-> b <= a) /\ (zcmp a b <= 0 <-> a <= b)).
Proof. split; [vm_compute; reflexivity|exact zcmp_spec]. Qed.
Example C16_example : bsearch_abs 5 (fun j => 3 - j) 0 5 = Some 3 /\ sorted_wrt (fun j => 3 - j) 0 5.
Proof. split; [reflexivity|]. intros i j Hi Hij Hj. split; intros; lia. Qed.
