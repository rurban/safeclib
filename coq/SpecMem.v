(* SpecMem.v -- functional specification of the memory family (memcpy_s .. memmove32_s, memzero*_s, memset_s). *)
From Coq Require Import ZArith Lia Bool.
From SC Require Import Base Wp Cfg Comb CombProofs ModMem ProofsMem.
Local Open Scope Z_scope.

Definition zeroed (m' : mem) (d n : Z) : Prop := forall a, d <= a < d + n -> m' a = 0.
Definition moved (m m' : mem) (d s n : Z) : Prop :=
  forall a, m' a = if in_range d n a then m (s + (a - d)) else m a.

Definition mem_copy_post (c : cfg) (w : Z) (ovl : bool) (d D s slen : Z) (m : mem) (r : Z) (m' : mem) : Prop :=
  (D < slen * w -> r = (if rmax_mem c <? slen * w then ESLEMAX else ESNOSPC) /\ zeroed m' d D) /\
  (slen * w <= D ->
     if ovl && chk_ovrlp_butsame d (D / w * w) s (slen * w)
     then r = ESOVRLP /\ zeroed m' d D
     else r = EOK /\ moved m m' d s (slen * w)).

Lemma fill_zeroed m d n : zeroed (fill m d n 0) d n.
Proof. intros a Ha. apply fill_in, Ha. Qed.

Lemma chk_dest_mem_ok rmax d dmax destbos (k : unit -> prog Z) : d <> 0 -> 1 <= dmax ->
  ((destbos = BOS_UNKNOWN /\ dmax <= rmax) \/ (destbos <> BOS_UNKNOWN /\ dmax <= destbos)) ->
  chk_dest_mem rmax d dmax destbos k = k tt.
Proof. intros Hd H1 [[-> Hr]|[Hn Hr]]; unfold chk_dest_mem; tests; reflexivity. Qed.

Theorem mem_copy_gen_spec c w rmax use_bos ovl code clr d dmax s slen destbos srcbos m :
  d <> 0 -> s <> 0 -> 1 <= dmax -> 1 <= slen ->
  ((destbos = BOS_UNKNOWN /\ dmax <= rmax) \/ (destbos <> BOS_UNKNOWN /\ dmax <= destbos)) ->
  (srcbos = BOS_UNKNOWN \/ slen * w <= srcbos) ->
  wp (mem_copy_gen c w rmax use_bos ovl code clr d dmax s slen destbos srcbos) m
     (mem_copy_post c w ovl d (eff_dmax use_bos dmax destbos) s slen m).
Proof.
  intros Hd Hs H1 Hl Hu Hsb. unfold mem_copy_gen. tests.
  rewrite chk_dest_mem_ok by assumption. cbv zeta. fold (eff_dmax use_bos dmax destbos). set (D := eff_dmax use_bos dmax destbos).
  unfold mem_copy_post. destruct (Z.ltb_spec D (slen * w)) as [E1|E1].
  - cbn. split; [intros _|intros; lia]. split; [reflexivity|apply fill_zeroed].
  - replace (negb (srcbos =? BOS_UNKNOWN) && (srcbos <? slen * w)) with false by lia.
    destruct (ovl && chk_ovrlp_butsame d (D / w * w) s (slen * w)); cbn; (split; [intros; lia|intros _]).
    + split; [reflexivity|apply fill_zeroed].
    + split; [reflexivity|]. intros a. reflexivity.
Qed.

(* memzero / memset functional part (C06, C18 (a)): exactly the requested bytes hold the value *)
Lemma memzerow_s_spec c w d len destbos m :
  d <> 0 -> 1 <= len * w -> ((destbos = BOS_UNKNOWN /\ len * w <= rmax_mem c) \/ (destbos <> BOS_UNKNOWN /\ len * w <= destbos)) ->
  wp (memzerow_s c w d len destbos) m (fun r m' => r = EOK /\ forall a, m' a = if in_range d (len * w) a then 0 else m a).
Proof.
  intros Hd H1 Hu. unfold memzerow_s. rewrite chk_dest_mem_ok by assumption. cbn. split; [reflexivity|]. intros a. reflexivity.
Qed.
Lemma memset_s_spec c d dmax value n destbos m :
  d <> 0 -> 1 <= n -> 0 <= value <= 255 ->
  ((destbos = BOS_UNKNOWN /\ n <= dmax <= rmax_mem c) \/ (destbos <> BOS_UNKNOWN /\ dmax <= destbos /\ n <= destbos)) ->
  wp (memset_s c d dmax value n destbos) m (fun r m' => r = EOK /\ forall a, m' a = if in_range d n a then value else m a).
Proof.
  intros Hd Hn Hv Hu. unfold memset_s. destruct Hu as [[-> Hu]|Hu]; tests; cbn.
  all: split; [reflexivity|]; intros a; unfold fill; rewrite Z.mod_small by lia; reflexivity.
Qed.
