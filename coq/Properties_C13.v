(* Properties_C13.v -- C13: constraint-handler registration = per-thread override of a global.
   The refinement theorem and what it means for registration and dispatch, read off the snoc lemmas of HandlerProofs.v. *)
From Coq Require Import List Arith.
From SC Require Import HandlerModel HandlerProofs.
Import ListNotations.

(* every finite history, any threads: the implementation model answers as the specification *)
Theorem C13_refinement : forall l, run_hist h_init l = spec_hist [] l.
Proof. intros l. apply run_refines_spec, inv_init. Qed.
Print Assumptions C13_refinement.
(* registering returns the previous registration of the same kind (NULL if never registered): spec_out unfolded;
   what last_glob is after a registration is last_glob_snoc *)
Theorem C13_set_returns_previous : forall past k t h, spec_out past (OSet k t h) = ORet (as_slot (last_glob k past)).
Proof. reflexivity. Qed.
Print Assumptions C13_set_returns_previous.
(* string and memory registrations are independent *)
Theorem C13_kinds_independent : forall past k t o,
  (match o with OSet k' _ _ | OThrdSet k' _ _ => k' <> k | _ => True end) ->
  (match o with OSpawn _ c => c <> t | _ => True end) ->
  dispatch_spec k t (past ++ [o]) = dispatch_spec k t past.
Proof. intros past k t o Hk Hs. apply dispatch_snoc_other. destruct o; auto. Qed.
Print Assumptions C13_kinds_independent.
(* a thread-local registration is never used on behalf of another thread *)
Theorem C13_thread_local_is_private : forall past k t h k' t', t' <> t ->
  dispatch_spec k' t' (past ++ [OThrdSet k t h]) = dispatch_spec k' t' past.
Proof. intros past k t h k' t' Hne. apply dispatch_snoc_other. auto. Qed.
Print Assumptions C13_thread_local_is_private.
(* nor inherited by a thread created later (whoever creates it): the open clause of the property is
   modelled as "not inherited", which is what thread-local storage provides *)
Theorem C13_spawn_fresh : forall past pa c k, last_thrd k c (past ++ [OSpawn pa c]) = None.
Proof. intros. rewrite last_thrd_snoc, Nat.eqb_refl. reflexivity. Qed.
Print Assumptions C13_spawn_fresh.
(* any other library call (the model's OCall: a successful call or a query of an entry point that is not a registration)
   leaves every dispatch decision and every later registration result as it was *)
Theorem C13_other_calls_do_not_register : forall past k t t',
  dispatch_spec k t (past ++ [OCall t']) = dispatch_spec k t past /\
  last_glob k (past ++ [OCall t']) = last_glob k past /\ last_thrd k t (past ++ [OCall t']) = last_thrd k t past.
Proof. intros. split; [apply dispatch_snoc_other; exact I|]. rewrite last_glob_snoc, last_thrd_snoc. split; reflexivity. Qed.
Print Assumptions C13_other_calls_do_not_register.
(* non-vacuity: a history with two threads, both kinds, a NULL reset *)
Example C13_example :
  run_hist h_init [OViolate KStr 0; OSet KStr 0 (Some 1); OThrdSet KStr 0 (Some 2); OSpawn 0 1; OViolate KStr 1;
                   OViolate KStr 0; OThrdSet KStr 0 None; OViolate KStr 0; OViolate KMem 1]
  = [ORan RDef; ORet SNull; ORet SNull; ONone; ORan (RUser 1); ORan (RUser 2); ORet (SUser 2); ORan RDef; ORan RDef].
Proof. vm_compute. reflexivity. Qed.
