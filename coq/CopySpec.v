(* CopySpec.v -- what the pieces of the copy / concatenate family do to memory: the clearing exits,
   the slack fill, the geometry of the overlap bumper, and the "find the end of dest" scan.
   The copy loop itself is specified in SpecStr.v. *)
From Coq Require Import ZArith Lia Bool.
From SC Require Import Base Wp Cfg Comb CombProofs.
Local Open Scope Z_scope.
Local Open Scope prog_scope.

(* dest[0..dmax) is cleared the way handle_error clears it *)
Definition cleared (c : cfg) (w : Z) (m' : mem) (od odmax : Z) : Prop :=
  if null_slack c then (forall a, od <= a < od + odmax * w -> m' a = 0) else load m' w od = 0.

Lemma fill_store_in m w p v d k a : d <= p -> p + w <= d + k -> fill (store m w p v) d k 0 a = fill m d k 0 a.
Proof. intros H1 H2. unfold fill. destruct (in_rangeP d k a); [reflexivity|]. apply store_out. lia. Qed.

Lemma zero_loop_spec R w n : 0 < w -> forall d m (Q : unit -> mem -> Prop),
  (forall m', (forall a, m' a = fill m d (Z.of_nat n * w) 0 a) -> Q tt m') -> wpr R (zero_loop w n d) m Q.
Proof.
  intros Hw. induction n as [|n IH]; intros d m Q HQ; cbn [zero_loop wpr].
  - apply HQ. intros a. rewrite fill_out; [reflexivity|lia].
  - apply IH. intros m' Hm'. apply HQ. intros a. rewrite Hm', Nat2Z.inj_succ, Z.mul_succ_l.
    destruct (Z_lt_le_dec a d); [rewrite !fill_out, store_out by lia; reflexivity|].
    destruct (Z_lt_le_dec a (d + w)); [rewrite fill_out, fill_in, store_zero_byte by lia; reflexivity|].
    destruct (Z_lt_le_dec a (d + w + Z.of_nat n * w)); [rewrite !fill_in by lia|rewrite !fill_out, store_out by lia]; reflexivity.
Qed.
Lemma zero_slack_spec R c w n : 0 < w -> forall d m (Q : unit -> mem -> Prop),
  (forall m', (forall a, m' a = if null_slack c then fill m d (Z.of_nat n * w) 0 a else m a) -> Q tt m') ->
  wpr R (zero_slack c w d n) m Q.
Proof.
  intros Hw d m Q HQ. unfold zero_slack. destruct (null_slack c); [destruct (32 <? Z.of_nat n)|].
  - apply HQ. reflexivity.
  - apply zero_loop_spec; auto.
  - apply HQ. reflexivity.
Qed.

Lemma fail_exit {A} R c w od odmax code (k : prog A) : 0 < w -> 1 <= odmax -> forall m (Q : A -> mem -> Prop),
  (forall m', cleared c w m' od odmax -> wpr R k m' Q) -> wpr R (handle_error c w od odmax code ;;; k) m Q.
Proof.
  intros Hw Ho m Q HQ. unfold handle_error, cleared in *. pose proof (mul_ge_self w odmax Hw Ho).
  destruct (null_slack c); cbn; apply HQ.
  - intros a Ha. apply fill_in. lia.
  - apply load_store_zero.
Qed.

Section Bumper.
  Variables (w : Z) (fwd : bool) (bumper : Z).
  Hypothesis Hw : 0 < w.
  Notation elem m a := (load m w a).

  (* g more iterations until the bumper fires; the source still to be read and the
     destination still to be written are on opposite sides of the bumper *)
  Definition sep (d s g : Z) : Prop :=
    0 <= g /\ if fwd then d + g * w = bumper /\ bumper <= s else s + g * w = bumper /\ bumper <= d.

  Lemma sep_step d s g : sep d s g -> 1 <= g -> sep (d + w) (s + w) (g - 1).
  Proof. unfold sep. destruct fwd; intros (H0 & H1 & H2) Hg; repeat split; lia. Qed.
  Lemma sep_test d s g : sep d s g -> (if fwd then d =? bumper else s =? bumper) = (g =? 0).
  Proof. unfold sep. destruct fwd; intros (H0 & H1 & H2); destruct (Z.eqb_spec g 0); try apply Z.eqb_eq; try apply Z.eqb_neq; nia. Qed.
  Lemma sep_src d s g j m v : sep d s g -> 1 <= j < g -> elem (store m w d v) (s + j * w) = elem m (s + j * w).
  Proof. unfold sep. intros (H0 & HS) Hj. apply load_store_other. destruct fwd; nia. Qed.
End Bumper.

Section CopyLoopSpec.
  Variables (w : Z) (use_slen : bool).
  Notation elem m a := (load m w a).

  (* the source as it is in memory before the call ends at index t: by a terminator or by slen *)
  Definition src_ends (m : mem) (s sl t : Z) : Prop :=
    0 <= t /\ (forall j, 0 <= j < t -> elem m (s + j * w) <> 0) /\
    (use_slen = true -> t <= sl) /\ (elem m (s + t * w) = 0 \/ (use_slen = true /\ sl = t)).
End CopyLoopSpec.

Section FindEnd.
  Variables (c : cfg) (w : Z) (fwd : bool) (od odmax bumper : Z).
  Hypothesis Hw : 0 < w.
  Hypothesis Hod : 1 <= odmax.
  Notation elem m a := (load m w a).
  Notation fe := (find_end c w fwd od odmax bumper).

  Lemma find_end_skip (R : Z -> Prop) (k : nat -> Z -> prog Z) (Q : Z -> mem -> Prop) : forall L n d m, (L < n)%nat ->
    (forall j, 0 <= j < Z.of_nat L -> elem m (d + j * w) <> 0 /\ (fwd = true -> d + j * w <> bumper)) ->
    (forall a, ext d (Z.of_nat L * w) a -> R a) ->
    wpr R (fe (n - L) (d + Z.of_nat L * w) k) m Q -> wpr R (fe n d k) m Q.
  Proof.
    induction L as [|L IH]; intros n d m HLn Hj HR Hk.
    - rewrite Z.mul_0_l, Z.add_0_r, Nat.sub_0_r in Hk. exact Hk.
    - destruct n as [|[|n]]; [lia|lia|]. rewrite Nat2Z.inj_succ, Z.mul_succ_l in *.
      destruct (Hj 0 ltac:(lia)) as [Hz Hb]. rewrite Z.mul_0_l, Z.add_0_r in Hz, Hb.
      cbn [find_end wpr]. split; [intros x Hx; apply HR; unfold ext; nia|].
      rewrite (proj2 (Z.eqb_neq _ _) Hz).
      replace (fwd && (d =? bumper)) with false by (destruct fwd; [symmetry; apply Z.eqb_neq; auto|reflexivity]).
      apply (IH (S n) (d + w)); [lia| | |].
      + intros j Hj'. replace (d + w + j * w) with (d + (j + 1) * w) by lia. apply Hj. lia.
      + intros a Ha. apply HR. unfold ext in *. lia.
      + replace (d + w + Z.of_nat L * w) with (d + (Z.of_nat L * w + w)) by lia. exact Hk.
  Qed.

  Lemma find_end_ok (R : Z -> Prop) (k : nat -> Z -> prog Z) Q n d P m :
    0 <= P < Z.of_nat n ->
    (forall j, 0 <= j < P -> elem m (d + j * w) <> 0) -> elem m (d + P * w) = 0 ->
    (fwd = true -> forall j, 0 <= j < P -> d + j * w <> bumper) ->
    (forall a, ext d ((P + 1) * w) a -> R a) ->
    wpr R (k (n - Z.to_nat P)%nat (d + P * w)) m Q -> wpr R (fe n d k) m Q.
  Proof.
    intros HP Hnz Hz Hb HR Hk. apply (find_end_skip R k Q (Z.to_nat P)); rewrite ?Z2Nat.id by lia; [lia|auto| |].
    - intros a Ha. apply HR. unfold ext in *. lia.
    - destruct (n - Z.to_nat P)%nat eqn:E; [lia|]. cbn [find_end wpr]. rewrite Hz. cbn.
      split; [intros x Hx; apply HR; unfold ext; lia|exact Hk].
  Qed.

  Lemma find_end_unterm : forall n d m (k : nat -> Z -> prog Z),
    (1 <= n)%nat -> (forall j, 0 <= j < Z.of_nat n -> elem m (d + j * w) <> 0) ->
    (fwd = true -> forall j, 0 <= j < Z.of_nat n -> d + j * w <> bumper) ->
    wp (fe n d k) m (fun r m' => r = ESUNTERM /\ cleared c w m' od odmax).
  Proof.
    intros n d m k Hn Hnz Hb. apply (wpr_wp (fun _ => True)), (find_end_skip _ k _ (n - 1)); [lia| |exact (fun _ _ => I)|].
    { intros j Hj. split; [apply Hnz|intros Hf; apply Hb; auto]; lia. }
    replace (n - (n - 1))%nat with 1%nat by lia. cbn [find_end wpr]. split; [exact (fun _ _ => I)|].
    rewrite (proj2 (Z.eqb_neq _ _) (Hnz (Z.of_nat (n - 1)) ltac:(lia))).
    destruct (fwd && _) eqn:E; [|apply fail_exit; cbn; auto].
    apply andb_prop in E. destruct E as [-> E]. apply Z.eqb_eq in E. destruct (Hb eq_refl (Z.of_nat (n - 1)) ltac:(lia) E).
  Qed.

  Lemma find_end_ovrlp (R : Z -> Prop) (k : nat -> Z -> prog Z) (Q : Z -> mem -> Prop) n d g m :
    fwd = true -> 0 <= g < Z.of_nat n -> d + g * w = bumper ->
    (forall j, 0 <= j <= g -> elem m (d + j * w) <> 0) -> (forall a, ext d ((g + 1) * w) a -> R a) ->
    (forall m', cleared c w m' od odmax -> Q ESOVRLP m') -> wpr R (fe n d k) m Q.
  Proof.
    intros Hf Hg Hbump Hnz HR HQ. apply (find_end_skip R k _ (Z.to_nat g)); rewrite ?Z2Nat.id by lia; [lia| | |].
    - intros j Hj. split; [apply Hnz; lia|]. nia.
    - intros a Ha. apply HR. unfold ext in *. lia.
    - destruct (n - Z.to_nat g)%nat eqn:E; [lia|]. cbn [find_end wpr]. split; [intros x Hx; apply HR; unfold ext; lia|].
      rewrite (proj2 (Z.eqb_neq _ _) (Hnz g ltac:(lia))), Hf, (proj2 (Z.eqb_eq _ _) Hbump). apply fail_exit; auto.
  Qed.

  Lemma find_end_reads (k : nat -> Z -> prog Z) (R : Z -> Prop) n : forall d m,
    (1 <= n)%nat -> (forall a, ext d (Z.of_nat n * w) a -> R a) ->
    (forall n' d', reads_ok R (k n' d') m) ->
    reads_ok R (find_end c w fwd od odmax bumper n d k) m.
  Proof using Hw.
    clear Hod. (* nia would use it, and the statement does not need 1 <= odmax *)
    induction n as [|n IH]; intros d m Hn HR Hk; [lia|].
    rewrite Nat2Z.inj_succ, Z.mul_succ_l in HR.
    cbn [find_end reads_ok]. split; [intros x Hx; apply HR; unfold ext; nia|].
    destruct (load m w d =? 0); [apply Hk|].
    assert (HE : forall code, reads_ok R (handle_error c w od odmax code ;;; Ret code) m)
      by (intros code; unfold handle_error; destruct (null_slack c); exact I).
    destruct (fwd && (d =? bumper)); [apply HE|]. destruct n as [|n']; [apply HE|].
    apply IH; auto; [lia|]. intros a Ha. apply HR. unfold ext in *. nia.
  Qed.
End FindEnd.
