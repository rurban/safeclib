(* SpecExt4.v -- functional specification (C06, C08) of wcsset_s and wcsnset_s, stated by element loads inside the filled part
   and by bytes elsewhere.  Loop and slack test are specified once, for every width and count (wset_fill_wp); strset_s and
   strnset_s are the case w = 1 (SpecExt2.v). *)
From Coq Require Import ZArith Lia Bool.
From SC Require Import Base Wp Cfg CombProofs SpecStr ModExt2.
Local Open Scope Z_scope.

Lemma wset_loop_wp w v n (k : nat -> Z -> prog Z) (Q : Z -> mem -> Prop) : 0 < w -> forall d m,
  (forall t m1, (t <= n)%nat ->
     (forall i, 0 <= i < Z.of_nat t -> load m w (d + i * w) <> 0) -> ((t < n)%nat -> load m w (d + Z.of_nat t * w) = 0) ->
     (forall i, 0 <= i < Z.of_nat t -> load m1 w (d + i * w) = v mod 256 ^ w) ->
     (forall a, ~ (d <= a < d + Z.of_nat t * w) -> m1 a = m a) ->
     wp (k (n - t)%nat (d + Z.of_nat t * w)) m1 Q) ->
  wp (wset_loop w v n d k) m Q.
Proof.
  intros Hw. induction n as [|n IH]; intros d m HK; cbn [wset_loop wp];
    (* stopping here is t = 0 *)
    pose proof (HK O m) as Stop; cbn [Z.of_nat] in Stop; rewrite Z.mul_0_l, Z.add_0_r, Nat.sub_0_r in Stop.
  - apply Stop; intros; lia || reflexivity.
  - destruct (Z.eqb_spec (load m w d) 0) as [E|E]; [apply Stop; intros; lia || auto|]. cbn [wp].
    apply IH. intros t m1 Ht Hnz Hz Hv Hout.
    (* t elements behind the one just stored are t + 1 from d *)
    assert (Hs : forall j, 0 <= j -> load (store m w d v) w (d + w + j * w) = load m w (d + (j + 1) * w))
      by (intros j Hj; rewrite load_store_other by nia; f_equal; lia).
    replace (d + w + Z.of_nat t * w) with (d + Z.of_nat (S t) * w) by lia.
    apply (HK (S t)); try lia; rewrite ?Nat2Z.inj_succ.
    + intros i Hi. destruct (Z.eq_dec i 0) as [->|Ni]; [rewrite Z.mul_0_l, Z.add_0_r; exact E|].
      replace i with (i - 1 + 1) by lia. rewrite <- Hs by lia. apply Hnz. lia.
    + intros Hl. rewrite <- Z.add_1_r, <- Hs by lia. apply Hz. lia.
    + intros i Hi. destruct (Z.eq_dec i 0) as [->|Ni].
      * rewrite Z.mul_0_l, Z.add_0_r, (load_ext m1 (store m w d v)); [apply load_store_same; lia|].
        intros x Hx. apply Hout. nia.
      * replace (d + i * w) with (d + w + (i - 1) * w) by lia. apply Hv. lia.
    + intros a Ha. rewrite Hout by nia. apply store_out. nia.
Qed.

Lemma wslack_if_nul_wp c w rem p m (Q : Z -> mem -> Prop) :
  (forall m', (forall a, m' a = if null_slack c && (0 <? rem) && (load m w p =? 0) && in_range p (rem * w) a then 0 else m a) -> Q EOK m') ->
  wp (wslack_if_nul c w rem p) m Q.
Proof.
  intros HQ. unfold wslack_if_nul. destruct (null_slack c); cbn [andb]; [|cbn [wp]; apply HQ; reflexivity].
  destruct (0 <? rem) eqn:E; cbn [andb]; [|cbn [wp]; apply HQ; reflexivity].
  cbn [wp]. destruct (load m w p =? 0); cbn [andb wp]; [|apply HQ; reflexivity].
  apply HQ. intros a. unfold fill. rewrite Z.mod_0_l by lia. reflexivity.
Qed.

Lemma chk_dest_wset_ok c d dmax value destbos (k : unit -> prog Z) :
  d <> 0 -> usable (rmax_wstr c) (wchar_w c) dmax destbos -> wc_signed value <= UNICODE_MAX ->
  chk_dest_wset c d dmax value destbos k = k tt.
Proof. intros Hd (H1 & [[-> Hr]|[Hn Hr]]) Hv; unfold chk_dest_wset; tests; reflexivity. Qed.

(* wcsnset_s: at most n elements are filled; the slack behind the terminator is counted from where the loop stopped *)
Definition wnset_post (c : cfg) (w d dmax n v : Z) (m : mem) (r : Z) (m' : mem) : Prop :=
  r = EOK /\ exists t, 0 <= t <= n /\
    (forall i, 0 <= i < t -> load m w (d + i * w) <> 0) /\ (t < n -> load m w (d + t * w) = 0) /\
    (forall i, 0 <= i < t -> load m' w (d + i * w) = v mod 256 ^ w) /\
    forall a, ~ (d <= a < d + t * w) ->
      m' a = if null_slack c && (t <? dmax) && (load m w (d + t * w) =? 0) && in_range (d + t * w) ((dmax - t) * w) a then 0 else m a.

(* the fill loop of all four set functions: the continuation is the slack test over [rem] elements, where [rem] comes to
   dmax - t however the function computes it *)
Lemma wset_fill_wp c w v d dmax n (rem : nat -> Z -> Z) m : 0 < w -> 0 <= n <= dmax ->
  (forall t, (t <= Z.to_nat n)%nat -> rem (Z.to_nat n - t)%nat (d + Z.of_nat t * w) = dmax - Z.of_nat t) ->
  wp (wset_loop w v (Z.to_nat n) d (fun r p => wslack_if_nul c w (rem r p) p)) m (wnset_post c w d dmax n v m).
Proof.
  intros Hw Hn Hrem. apply wset_loop_wp; [exact Hw|]. intros t m1 Ht Hnz Hz Hval Hout.
  rewrite Hrem by exact Ht. apply wslack_if_nul_wp. intros m' Hm'.
  split; [reflexivity|]. exists (Z.of_nat t). split; [lia|]. split; [exact Hnz|]. split; [intros Hl; apply Hz; lia|].
  split.
  - (* the slack lies behind the filled elements *)
    intros i Hi. rewrite <- (Hval i Hi). apply load_ext. intros x Hx. rewrite Hm'.
    destruct (in_rangeP (d + Z.of_nat t * w) ((dmax - Z.of_nat t) * w) x); [nia|]. rewrite !andb_false_r. reflexivity.
  - (* the slack test reads the element the loop stopped at, which the loop has not written *)
    intros a Ha. rewrite Hm', Hout by exact Ha. rewrite (load_ext m1 m) by (intros x Hx; apply Hout; nia).
    replace (0 <? dmax - Z.of_nat t) with (Z.of_nat t <? dmax) by lia. reflexivity.
Qed.

Theorem wcsnset_s_usable c d dmax value n destbos m : wf_cfg c -> d <> 0 -> usable (rmax_wstr c) (wchar_w c) dmax destbos ->
  wc_signed value <= UNICODE_MAX -> 0 <= n <= dmax ->
  wp (wcsnset_s c d dmax value n destbos) m (wnset_post c (wchar_w c) d dmax n (value mod 4294967296) m).
Proof.
  intros Hc Hd Hu Hv Hn. pose proof (wchar_w_pos c Hc) as Hw. unfold wcsnset_s. rewrite chk_dest_wset_ok by assumption.
  tests. apply (wset_fill_wp c _ _ d dmax n (fun _ p => dmax - (p - d) / wchar_w c)); [exact Hw|exact Hn|]. intros t _.
  replace (d + Z.of_nat t * wchar_w c - d) with (Z.of_nat t * wchar_w c) by lia. rewrite Z.div_mul by lia. reflexivity.
Qed.
Theorem wcsnset_s_spec c d dmax value n m : wf_cfg c -> d <> 0 -> 1 <= dmax <= rmax_wstr c -> wc_signed value <= UNICODE_MAX -> 0 <= n <= dmax ->
  wp (wcsnset_s c d dmax value n BOS_UNKNOWN) m (wnset_post c (wchar_w c) d dmax n (value mod 4294967296) m).
Proof. intros Hc Hd Hm. apply wcsnset_s_usable; auto using usable_unknown. Qed.

Definition wset_post (c : cfg) (w d dmax v : Z) (m : mem) (r : Z) (m' : mem) : Prop :=
  r = EOK /\ exists t, 0 <= t <= dmax /\
    (forall i, 0 <= i < t -> load m w (d + i * w) <> 0) /\ (t < dmax -> load m w (d + t * w) = 0) /\
    (forall i, 0 <= i < t -> load m' w (d + i * w) = v mod 256 ^ w) /\
    forall a, ~ (d <= a < d + t * w) ->
      m' a = if null_slack c && (t <? dmax) && in_range (d + t * w) ((dmax - t) * w) a then 0 else m a.

(* with n = dmax the loop can only stop short of dmax at a terminator, so the slack test is no further condition *)
Lemma wnset_post_all c w d dmax v m r m' : wnset_post c w d dmax dmax v m r m' -> wset_post c w d dmax v m r m'.
Proof.
  intros (Hr & t & Ht & Hnz & Hz & Hval & Hout). split; [exact Hr|]. exists t. repeat (split; [assumption|]).
  intros a Ha. rewrite (Hout a Ha). destruct (Z.ltb_spec t dmax) as [Hlt|Hge]; [|rewrite !andb_false_r; reflexivity].
  rewrite (Hz Hlt), Z.eqb_refl, andb_true_r. reflexivity.
Qed.

Theorem wcsset_s_usable c d dmax value destbos m : wf_cfg c -> d <> 0 -> usable (rmax_wstr c) (wchar_w c) dmax destbos ->
  wc_signed value <= UNICODE_MAX ->
  wp (wcsset_s c d dmax value destbos) m (wset_post c (wchar_w c) d dmax (value mod 4294967296) m).
Proof.
  intros Hc Hd Hu Hv. unfold wcsset_s. rewrite chk_dest_wset_ok by assumption. destruct Hu as [H1 _].
  eapply wp_weaken; [apply wnset_post_all|].
  apply (wset_fill_wp c _ _ d dmax dmax (fun r _ => Z.of_nat r)); [apply wchar_w_pos, Hc|lia|]. intros t Ht. lia.
Qed.
Theorem wcsset_s_spec c d dmax value m : wf_cfg c -> d <> 0 -> 1 <= dmax <= rmax_wstr c -> wc_signed value <= UNICODE_MAX ->
  wp (wcsset_s c d dmax value BOS_UNKNOWN) m (wset_post c (wchar_w c) d dmax (value mod 4294967296) m).
Proof. intros Hc Hd Hm. apply wcsset_s_usable; auto using usable_unknown. Qed.
