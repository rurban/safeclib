(* Base.v -- memory, events, the free-monad program type [prog], its executable
   semantics [run], and the syntactic predicates (footprints, [no_static], [rets], [hspec])
   with their soundness lemmas w.r.t. [run]; [no_handler] is a premise for [hspec] only. *)
From Coq Require Import List ZArith Lia Bool.
Import ListNotations.
Local Open Scope Z_scope.

Definition mem := Z -> Z.          (* one byte per address (0..255 is Wp.wf_mem, not the type); address 0 is NULL *)
Inductive hkind := HStr | HMem.

(* observable events, byte granular *)
Inductive ev :=
| ERead (a n : Z)                  (* bytes [a, a+n) were read *)
| EWrite (a n : Z)                 (* bytes [a, a+n) were written *)
| EHandler (k : hkind) (code : Z)  (* invoke_safe_{str,mem}_constraint_handler *)
| EAlloc (n r : Z)                 (* malloc(n) returned r (0 = failed) *)
| EFree (p : Z)
| EStatic (id : Z).                (* a static (non caller-provided) object was used *)

Inductive prog (A : Type) : Type :=
| Ret (a : A)
| Load (w p : Z) (k : Z -> prog A)        (* little-endian load of w bytes *)
| Store (w p v : Z) (k : prog A)
| Fill (p n v : Z) (k : prog A)           (* memset(p, v, n) *)
| Move (d s n : Z) (k : prog A)           (* memmove(d, s, n) *)
| Handler (hk : hkind) (code : Z) (k : prog A)
| Alloc (n : Z) (k : Z -> prog A)
| Free (p : Z) (k : prog A)
| Static (id : Z) (k : prog A).
Arguments Ret {A}. Arguments Load {A}. Arguments Store {A}. Arguments Fill {A}.
Arguments Move {A}. Arguments Handler {A}. Arguments Alloc {A}. Arguments Free {A}.
Arguments Static {A}.

Fixpoint bind {A B} (p : prog A) (f : A -> prog B) : prog B :=
  match p with
  | Ret a => f a
  | Load w a k => Load w a (fun v => bind (k v) f)
  | Store w a v k => Store w a v (bind k f)
  | Fill a n v k => Fill a n v (bind k f)
  | Move d s n k => Move d s n (bind k f)
  | Handler hk c k => Handler hk c (bind k f)
  | Alloc n k => Alloc n (fun r => bind (k r) f)
  | Free a k => Free a (bind k f)
  | Static i k => Static i (bind k f)
  end.

Declare Scope prog_scope.
Delimit Scope prog_scope with prog.
Notation "x <- p ;; q" := (bind p (fun x => q))
  (at level 61, p at next level, right associativity) : prog_scope.
Notation "p ;;; q" := (bind p (fun _ => q))
  (at level 61, right associativity) : prog_scope.

Definition in_range (a n x : Z) : bool := (a <=? x) && (x <? a + n).

Fixpoint load_n (m : mem) (n : nat) (p : Z) : Z :=
  match n with O => 0 | S n' => m p + 256 * load_n m n' (p + 1) end.
Definition load (m : mem) (w p : Z) : Z := load_n m (Z.to_nat w) p.

Definition store (m : mem) (w p v : Z) : mem :=
  fun x => if in_range p w x then (v / 2 ^ (8 * (x - p))) mod 256 else m x.
Definition fill (m : mem) (p n v : Z) : mem :=
  fun x => if in_range p n x then v mod 256 else m x.
Definition move (m : mem) (d s n : Z) : mem :=
  fun x => if in_range d n x then m (s + (x - d)) else m x.

Record world := mkW { wm : mem; wtr : list ev; wn : nat; wbrk : Z }.
Definition heap_stride := 1099511627776.   (* 2^40: the k-th live block starts at heap base + k * stride (blocks are smaller) *)

Section Run.
  Variable fail : nat -> bool.       (* the k-th allocation request fails *)
  Fixpoint run {A} (p : prog A) (w : world) : A * world :=
    match p with
    | Ret a => (a, w)
    | Load sz a k => run (k (load (wm w) sz a)) (mkW (wm w) (ERead a sz :: wtr w) (wn w) (wbrk w))
    | Store sz a v k => run k (mkW (store (wm w) sz a v) (EWrite a sz :: wtr w) (wn w) (wbrk w))
    | Fill a n v k => run k (mkW (fill (wm w) a n v) (EWrite a n :: wtr w) (wn w) (wbrk w))
    | Move d s n k => run k (mkW (move (wm w) d s n) (EWrite d n :: ERead s n :: wtr w) (wn w) (wbrk w))
    | Handler hk c k => run k (mkW (wm w) (EHandler hk c :: wtr w) (wn w) (wbrk w))
    | Alloc n k =>
        if fail (wn w)
        then run (k 0) (mkW (wm w) (EAlloc n 0 :: wtr w) (S (wn w)) (wbrk w))
        else run (k (wbrk w)) (mkW (wm w) (EAlloc n (wbrk w) :: wtr w) (S (wn w))
                                   (wbrk w + heap_stride))
    | Free a k => run k (mkW (wm w) (EFree a :: wtr w) (wn w) (wbrk w))
    | Static i k => run k (mkW (wm w) (EStatic i :: wtr w) (wn w) (wbrk w))
    end.
End Run.

Definition nofail : nat -> bool := fun _ => false.
Definition w0 (m : mem) : world := mkW m [] O 4611686018427387904.  (* heap far away: 2^62 *)
(* plain run: no allocation failures; result, final memory, trace in program order *)
Definition exec {A} (p : prog A) (m : mem) : A * mem * list ev :=
  let '(a, w) := run nofail p (w0 m) in (a, wm w, rev (wtr w)).

(* syntactic footprints: they quantify over every loaded value *)
Definition range_in (P : Z -> Prop) (a n : Z) : Prop := forall x, a <= x < a + n -> P x.

Fixpoint writes_in {A} (P : Z -> Prop) (p : prog A) : Prop :=
  match p with
  | Ret _ => True
  | Load _ _ k => forall v, writes_in P (k v)
  | Store w a _ k => range_in P a w /\ writes_in P k
  | Fill a n _ k => range_in P a n /\ writes_in P k
  | Move d _ n k => range_in P d n /\ writes_in P k
  | Handler _ _ k => writes_in P k
  | Alloc _ k => forall r, writes_in P (k r)
  | Free _ k => writes_in P k
  | Static _ k => writes_in P k
  end.

Fixpoint reads_in {A} (R : Z -> Prop) (p : prog A) : Prop :=
  match p with
  | Ret _ => True
  | Load w a k => range_in R a w /\ forall v, reads_in R (k v)
  | Store _ _ _ k => reads_in R k
  | Fill _ _ _ k => reads_in R k
  | Move _ s n k => range_in R s n /\ reads_in R k
  | Handler _ _ k => reads_in R k
  | Alloc _ k => forall r, reads_in R (k r)
  | Free _ k => reads_in R k
  | Static _ k => reads_in R k
  end.

Fixpoint no_handler {A} (p : prog A) : Prop :=
  match p with
  | Ret _ => True
  | Load _ _ k => forall v, no_handler (k v)
  | Store _ _ _ k | Fill _ _ _ k | Move _ _ _ k | Free _ k | Static _ k => no_handler k
  | Handler _ _ _ => False
  | Alloc _ k => forall r, no_handler (k r)
  end.
Fixpoint no_static {A} (p : prog A) : Prop :=
  match p with
  | Ret _ => True
  | Load _ _ k => forall v, no_static (k v)
  | Store _ _ _ k | Fill _ _ _ k | Move _ _ _ k | Free _ k | Handler _ _ k => no_static k
  | Static _ _ => False
  | Alloc _ k => forall r, no_static (k r)
  end.

Definition ev_write_ok (P : Z -> Prop) (e : ev) : Prop :=
  match e with EWrite a n => range_in P a n | _ => True end.
Definition ev_read_ok (R : Z -> Prop) (e : ev) : Prop :=
  match e with ERead a n => range_in R a n | _ => True end.
Definition is_handler (e : ev) : bool := match e with EHandler _ _ => true | _ => false end.
Definition is_static (e : ev) : bool := match e with EStatic _ => true | _ => false end.
Definition handlers (tr : list ev) : list (hkind * Z) :=
  flat_map (fun e => match e with EHandler k c => [(k, c)] | _ => [] end) tr.

Lemma in_rangeP a n x : reflect (a <= x < a + n) (in_range a n x).
Proof. apply iff_reflect. unfold in_range. rewrite andb_true_iff, Z.leb_le, Z.ltb_lt. tauto. Qed.

Lemma store_out m w p v x : ~ (p <= x < p + w) -> store m w p v x = m x.
Proof. unfold store. now destruct (in_rangeP p w x). Qed.
Lemma store_in m w p v x : p <= x < p + w -> store m w p v x = (v / 2 ^ (8 * (x - p))) mod 256.
Proof. unfold store. now destruct (in_rangeP p w x). Qed.
Lemma fill_out m p n v x : ~ (p <= x < p + n) -> fill m p n v x = m x.
Proof. unfold fill. now destruct (in_rangeP p n x). Qed.
Lemma fill_in m p n v x : p <= x < p + n -> fill m p n v x = v mod 256.
Proof. unfold fill. now destruct (in_rangeP p n x). Qed.
Lemma move_out m d s n x : ~ (d <= x < d + n) -> move m d s n x = m x.
Proof. unfold move. now destruct (in_rangeP d n x). Qed.
Lemma move_in m d s n x : d <= x < d + n -> move m d s n x = m (s + (x - d)).
Proof. unfold move. now destruct (in_rangeP d n x). Qed.
Lemma store1_in m p v : store m 1 p v p = v mod 256.
Proof. rewrite store_in by lia. now rewrite Z.sub_diag, Z.mul_0_r, Z.pow_0_r, Z.div_1_r. Qed.
Lemma load1 m p : load m 1 p = m p.
Proof. unfold load. change (Z.to_nat 1) with 1%nat. cbn [load_n]. lia. Qed.

Lemma range_in_weaken (P Q : Z -> Prop) a n : (forall x, P x -> Q x) -> range_in P a n -> range_in Q a n.
Proof. unfold range_in. auto. Qed.

Lemma writes_in_bind {A B} P (p : prog A) (f : A -> prog B) :
  writes_in P p -> (forall a, writes_in P (f a)) -> writes_in P (bind p f).
Proof. induction p; cbn; intuition auto. Qed.
Lemma reads_in_bind {A B} P (p : prog A) (f : A -> prog B) :
  reads_in P p -> (forall a, reads_in P (f a)) -> reads_in P (bind p f).
Proof. induction p; cbn; intuition auto. Qed.
Lemma no_static_bind {A B} (p : prog A) (f : A -> prog B) :
  no_static p -> (forall a, no_static (f a)) -> no_static (bind p f).
Proof. induction p; cbn; intuition auto. Qed.
Lemma no_handler_bind {A B} (p : prog A) (f : A -> prog B) :
  no_handler p -> (forall a, no_handler (f a)) -> no_handler (bind p f).
Proof. induction p; cbn; intuition auto. Qed.

Section RunLemmas.
  Variable fail : nat -> bool.

  Lemma run_bind {A B} (p : prog A) (f : A -> prog B) st :
    run fail (bind p f) st = let '(a, st') := run fail p st in run fail (f a) st'.
  Proof. revert st. induction p; cbn; intros st; auto. destruct (fail (wn st)); auto. Qed.

  Lemma run_frame {A} P (p : prog A) : writes_in P p ->
    forall st x, ~ P x -> wm (snd (run fail p st)) x = wm st x.
  Proof.
    induction p; cbn; intros Hs st x Hn; auto; try destruct (fail (wn st)); try destruct Hs as [Hr Hs];
      try (rewrite IHp by auto; cbn); try (rewrite H by auto; cbn); auto.
    all: (apply store_out || apply fill_out || apply move_out); intro Hx; apply Hn, Hr, Hx.
  Qed.

  Lemma run_trace_writes {A} P (p : prog A) : writes_in P p ->
    forall st, Forall (ev_write_ok P) (wtr st) -> Forall (ev_write_ok P) (wtr (snd (run fail p st))).
  Proof.
    induction p; cbn; intros Hs st Hw; try destruct (fail (wn st)); try destruct Hs; auto;
      (apply IHp || apply H); auto; cbn; repeat (constructor; cbn; auto).
  Qed.
  Lemma run_trace_reads {A} R (p : prog A) : reads_in R p ->
    forall st, Forall (ev_read_ok R) (wtr st) -> Forall (ev_read_ok R) (wtr (snd (run fail p st))).
  Proof.
    induction p; cbn; intros Hs st Hw; try destruct (fail (wn st)); try destruct Hs; auto;
      (apply IHp || apply H); auto; cbn; repeat (constructor; cbn; auto).
  Qed.
  Lemma run_trace_no_static {A} (p : prog A) : no_static p ->
    forall st, existsb is_static (wtr st) = false -> existsb is_static (wtr (snd (run fail p st))) = false.
  Proof.
    induction p; cbn; intros Hs st Hw; auto; try contradiction.
    - destruct (fail (wn st)); apply H; auto.
  Qed.
End RunLemmas.

Lemma exec_frame {A} P (p : prog A) m : writes_in P p ->
  forall x, ~ P x -> snd (fst (exec p m)) x = m x.
Proof.
  intros H x Hx. unfold exec. pose proof (run_frame nofail P p H (w0 m) x Hx) as F.
  destruct (run nofail p (w0 m)) as [a w]. cbn in *. exact F.
Qed.
Lemma exec_writes {A} P (p : prog A) m : writes_in P p -> Forall (ev_write_ok P) (snd (exec p m)).
Proof.
  intros H. unfold exec. pose proof (run_trace_writes nofail P p H (w0 m) (Forall_nil _)) as F.
  destruct (run nofail p (w0 m)) as [a w]. cbn in *. apply Forall_rev. exact F.
Qed.
Lemma exec_reads {A} R (p : prog A) m : reads_in R p -> Forall (ev_read_ok R) (snd (exec p m)).
Proof.
  intros H. unfold exec. pose proof (run_trace_reads nofail R p H (w0 m) (Forall_nil _)) as F.
  destruct (run nofail p (w0 m)) as [a w]. cbn in *. apply Forall_rev. exact F.
Qed.

Fixpoint rets {A} (Q : A -> Prop) (p : prog A) : Prop :=
  match p with
  | Ret a => Q a
  | Load _ _ k => forall v, rets Q (k v)
  | Store _ _ _ k | Fill _ _ _ k | Move _ _ _ k | Handler _ _ k | Free _ k | Static _ k => rets Q k
  | Alloc _ k => forall r, rets Q (k r)
  end.

(* hspec post acc p : on every path of p (for all loaded values), if hs are the handler
   invocations performed so far (acc) followed by those of p, and a the result, post hs a *)
Fixpoint hspec {A} (post : list (hkind * Z) -> A -> Prop) (acc : list (hkind * Z)) (p : prog A) : Prop :=
  match p with
  | Ret a => post acc a
  | Load _ _ k => forall v, hspec post acc (k v)
  | Store _ _ _ k | Fill _ _ _ k | Move _ _ _ k | Free _ k | Static _ k => hspec post acc k
  | Handler hk c k => hspec post (acc ++ [(hk, c)]) k
  | Alloc _ k => forall r, hspec post acc (k r)
  end.

Lemma rets_bind {A B} (Q : A -> Prop) (Q' : B -> Prop) (p : prog A) (f : A -> prog B) :
  rets Q p -> (forall a, Q a -> rets Q' (f a)) -> rets Q' (bind p f).
Proof. induction p; cbn; auto. Qed.
Lemma writes_in_bind_rets {A B} P (Q : A -> Prop) (p : prog A) (f : A -> prog B) :
  writes_in P p -> rets Q p -> (forall a, Q a -> writes_in P (f a)) -> writes_in P (bind p f).
Proof. induction p; cbn; intuition auto. Qed.
Lemma reads_in_bind_rets {A B} P (Q : A -> Prop) (p : prog A) (f : A -> prog B) :
  reads_in P p -> rets Q p -> (forall a, Q a -> reads_in P (f a)) -> reads_in P (bind p f).
Proof. induction p; cbn; intuition auto. Qed.
Lemma hspec_weaken {A} (post post' : list (hkind * Z) -> A -> Prop) (p : prog A) :
  (forall hs a, post hs a -> post' hs a) -> forall acc, hspec post acc p -> hspec post' acc p.
Proof. induction p; cbn; auto. Qed.
Lemma hspec_bind {A B} (post : list (hkind * Z) -> B -> Prop) (p : prog A) (f : A -> prog B) :
  forall acc, hspec (fun acc' a => hspec post acc' (f a)) acc p -> hspec post acc (bind p f).
Proof. induction p; cbn; auto. Qed.

Lemma handlers_app t1 t2 : handlers (t1 ++ t2) = handlers t1 ++ handlers t2.
Proof. unfold handlers. apply flat_map_app. Qed.

Section HspecSound.
  Variable fail : nat -> bool.
  Lemma hspec_run {A} (post : list (hkind * Z) -> A -> Prop) (p : prog A) :
    forall st, hspec post (handlers (rev (wtr st))) p ->
    let '(a, st') := run fail p st in post (handlers (rev (wtr st'))) a.
  Proof.
    induction p; cbn; intros st Hs; try destruct (fail (wn st)); auto; (apply IHp || apply H);
      cbn; rewrite ?handlers_app; cbn; rewrite ?app_nil_r; apply Hs.
  Qed.
  Lemma rets_run {A} (Q : A -> Prop) (p : prog A) : rets Q p -> forall st, Q (fst (run fail p st)).
  Proof. induction p; cbn; intros Hr st; auto. destruct (fail (wn st)); auto. Qed.
End HspecSound.

Lemma exec_hspec {A} (post : list (hkind * Z) -> A -> Prop) (p : prog A) m :
  hspec post [] p -> let '(a, _, tr) := exec p m in post (handlers tr) a.
Proof.
  intros H. unfold exec. pose proof (hspec_run nofail post p (w0 m) H) as F.
  destruct (run nofail p (w0 m)) as [a st]. exact F.
Qed.
