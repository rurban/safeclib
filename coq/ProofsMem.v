(* ProofsMem.v -- footprints and reports of ModMem.v: set_loop, the six copy/move functions at once (mem_copy_gen),
   memset16/32_s, memzero*_s. *)
From Coq Require Import List ZArith Bool.
From SC Require Import Base Cfg Interleave CombProofs ModMem.
Import ListNotations.
Local Open Scope Z_scope.

Lemma set_loop_writes P w n v : 0 < w -> forall d, range_in P d (Z.of_nat n * w) -> writes_in P (set_loop w n d v).
Proof. intros Hw. induction n as [|n IH]; walk. Qed.
Global Hint Resolve set_loop_writes : walk.
Lemma set_loop_plain w n v : forall d, plain (set_loop w n d v).
Proof. induction n; walk. Qed.
Global Hint Resolve set_loop_plain : walk.
Global Hint Unfold prim_set chk_dest_mem : walk.

(* the bound the copy functions really use *)
Definition eff_dmax (use_bos : bool) (dmax destbos : Z) : Z :=
  if use_bos && negb (destbos =? BOS_UNKNOWN) then destbos else dmax.

Lemma mem_copy_gen_writes c w rmax use_bos ovl code clr d dmax s slen destbos srcbos :
  writes_in (ext d (eff_dmax use_bos dmax destbos))
            (mem_copy_gen c w rmax use_bos ovl code clr d dmax s slen destbos srcbos).
Proof. unfold mem_copy_gen, eff_dmax. walk. Qed.

Lemma mem_copy_gen_rep c w rmax use_bos ovl code clr d dmax s slen destbos srcbos : code <> 0 ->
  hspec (report_post HMem) [] (mem_copy_gen c w rmax use_bos ovl code clr d dmax s slen destbos srcbos).
Proof. intros Hc. unfold mem_copy_gen. walk. Qed.

Lemma memsetw_s_writes c w rmaxw d dmax value n destbos : 0 < w ->
  writes_in (ext d (eff_dmax true dmax destbos)) (memsetw_s c w rmaxw d dmax value n destbos).
Proof. intros Hw. unfold memsetw_s, eff_dmax. walk. Qed.

Lemma memzerow_s_writes c w d len destbos : writes_in (ext d (len * w)) (memzerow_s c w d len destbos).
Proof. unfold memzerow_s. walk. Qed.
