(* Properties_C05.v -- C05: every violation reported exactly once with the returned code. *)
From Coq Require Import List ZArith.
From SC Require Import Base Wp Cfg Comb CombProofs ModStr ModMem ProofsStr ProofsMem PropDefs.
From SC.Gen Require Import Consts.
Import ListNotations.
Local Open Scope Z_scope.

(* soundness of wp w.r.t. [run], as in the files of the functional properties; the theorems below are over [run] (C05_holds)
   or, C05_strnlen_s, [hspec] itself (sound by Base.hspec_run) *)
Theorem C05_wp_sound : forall (A : Type) (fail : nat -> bool) (p : prog A) st Q,
  wp p (wm st) Q -> let '(a, st') := run fail p st in Q a (wm st').
Proof. exact (@wp_run). Qed.
Print Assumptions C05_wp_sound.

Theorem C05_strcpy_s : forall c d dmax s destbos, 0 <= dmax -> (destbos = BOS_UNKNOWN \/ 1 <= destbos) -> C05_holds HStr (strcpy_s c d dmax s destbos).
Proof. intros * _ Hb. apply C05_from_hspec. unfold strcpy_s. walk. Qed.
Print Assumptions C05_strcpy_s.
Theorem C05_strcat_s : forall c d dmax s destbos, 0 <= dmax -> (destbos = BOS_UNKNOWN \/ 1 <= destbos) -> C05_holds HStr (strcat_s c d dmax s destbos).
Proof. intros * _ Hb. apply C05_from_hspec. unfold strcat_s. walk. Qed.
Print Assumptions C05_strcat_s.
Theorem C05_wcscpy_s : forall c d dmax s destbos, C05_holds HStr (wcscpy_s c d dmax s destbos).
Proof. intros. apply C05_from_hspec. unfold wcscpy_s. walk. Qed.
Print Assumptions C05_wcscpy_s.
Theorem C05_strncpy_s : forall c d dmax s slen destbos srcbos, 0 <= dmax -> (destbos = BOS_UNKNOWN \/ 1 <= destbos) -> n_region_ok c dmax slen destbos srcbos -> C05_holds HStr (strncpy_s c d dmax s slen destbos srcbos).
Proof. (* the size handed to handle_str_bos_overflow is itself a test on destbos *)
  intros * H0 Hb [Hr Hs]. apply C05_from_hspec. unfold strncpy_s. destruct (Z.eqb_spec destbos BOS_UNKNOWN); walk. Qed.
Print Assumptions C05_strncpy_s.
Theorem C05_strncat_s_except : forall c d dmax s slen destbos srcbos, 0 <= dmax -> (destbos = BOS_UNKNOWN \/ 1 <= destbos) -> n_region_ok c dmax slen destbos srcbos -> slen <> 0 -> C05_holds HStr (strncat_s c d dmax s slen destbos srcbos).
Proof. intros * H0 Hb [Hr Hs] Hsl. apply C05_from_hspec. unfold strncat_s. destruct (Z.eqb_spec destbos BOS_UNKNOWN); walk. Qed.
Print Assumptions C05_strncat_s_except.
(* known finding strncat_s-slen0-handler: slen = 0 on a terminated dest reports code 0 and returns EOK *)
Theorem C05_strncat_s_slen0_refuted : exists c d dmax s slen destbos srcbos m,
  let '(r, _, tr) := exec (strncat_s c d dmax s slen destbos srcbos) m in r = EOK /\ handlers tr = [(HStr, 0)].
Proof. exists cfg_default, 1000, 4, 2000, 0, BOS_UNKNOWN, BOS_UNKNOWN, (fun _ => 0). vm_compute. split; reflexivity. Qed.
Print Assumptions C05_strncat_s_slen0_refuted.
(* slen exceeding a known source size while the dest size is unknown gives one report (C05_strncpy_s: n_region_ok admits
   destbos = BOS_UNKNOWN); before the repair of that exit in /repo it gave two.  The former witness, on the repaired code: *)
Example C05_strncpy_s_srcbos_single_report :
  let '(r, _, tr) := exec (strncpy_s cfg_default 1000 16 2000 10 BOS_UNKNOWN 4) (fun _ => 97) in handlers tr = [(HStr, EOVERFLOW)] /\ r = EOVERFLOW.
Proof. vm_compute. split; reflexivity. Qed.
Theorem C05_strnlen_s : forall c str smax bos, hspec (fun hs r => (hs = [] \/ (r = 0 /\ exists code, code <> 0 /\ hs = [(HStr, code)]))) [] (strnlen_s c str smax bos).
Proof. intros. unfold strnlen_s. walk; right; (split; [reflexivity|]); eexists; (split; [|reflexivity]); discriminate. Qed.
Print Assumptions C05_strnlen_s.
Theorem C05_memcpy_s : forall c d dmax s slen destbos srcbos, C05_holds HMem (memcpy_s c d dmax s slen destbos srcbos).
Proof. intros. apply C05_from_hspec, mem_copy_gen_rep. discriminate. Qed.
Print Assumptions C05_memcpy_s.
Theorem C05_memmove_s : forall c d dmax s slen destbos srcbos, C05_holds HMem (memmove_s c d dmax s slen destbos srcbos).
Proof. intros. apply C05_from_hspec, mem_copy_gen_rep. discriminate. Qed.
Print Assumptions C05_memmove_s.
Theorem C05_memcpy16_s : forall c d dmax s slen destbos srcbos, C05_holds HMem (memcpy16_s c d dmax s slen destbos srcbos).
Proof. intros. apply C05_from_hspec, mem_copy_gen_rep. discriminate. Qed.
Print Assumptions C05_memcpy16_s.
Theorem C05_memmove16_s : forall c d dmax s slen destbos srcbos, C05_holds HMem (memmove16_s c d dmax s slen destbos srcbos).
Proof. intros. apply C05_from_hspec, mem_copy_gen_rep. discriminate. Qed.
Print Assumptions C05_memmove16_s.
Theorem C05_memcpy32_s : forall c d dmax s slen destbos srcbos, C05_holds HMem (memcpy32_s c d dmax s slen destbos srcbos).
Proof. intros. apply C05_from_hspec, mem_copy_gen_rep. discriminate. Qed.
Print Assumptions C05_memcpy32_s.
Theorem C05_memmove32_s : forall c d dmax s slen destbos srcbos, C05_holds HMem (memmove32_s c d dmax s slen destbos srcbos).
Proof. intros. apply C05_from_hspec, mem_copy_gen_rep. discriminate. Qed.
Print Assumptions C05_memmove32_s.
Theorem C05_memset_s : forall c d dmax v n destbos, C05_holds HMem (memset_s c d dmax v n destbos).
Proof. intros. apply C05_from_hspec. unfold memset_s. walk. Qed.
Print Assumptions C05_memset_s.
Theorem C05_memzero_s : forall c d len destbos, C05_holds HMem (memzero_s c d len destbos).
Proof. intros. apply C05_from_hspec. unfold memzero_s, memzerow_s. walk. Qed.
Print Assumptions C05_memzero_s.
Theorem C05_memzero16_s : forall c d len destbos, C05_holds HMem (memzero16_s c d len destbos).
Proof. intros. apply C05_from_hspec. unfold memzero16_s, memzerow_s. walk. Qed.
Print Assumptions C05_memzero16_s.
Theorem C05_memzero32_s : forall c d len destbos, C05_holds HMem (memzero32_s c d len destbos).
Proof. intros. apply C05_from_hspec. unfold memzero32_s, memzerow_s. walk. Qed.
Print Assumptions C05_memzero32_s.
(* a size above the RSIZE limit is rejected before dest or src is touched: the program is the bare report *)
Theorem C05_strcpy_s_rsize_untouched : forall c d dmax s, d <> 0 -> 0 < dmax -> rmax_str c < dmax ->
  strcpy_s c d dmax s BOS_UNKNOWN = fail_str ESLEMAX.
Proof. intros c d dmax s Hd H0 Hr. unfold strcpy_s, chk_dest_str. tests. reflexivity. Qed.
Print Assumptions C05_strcpy_s_rsize_untouched.

Theorem C05_cfg_repo_wf : wf_cfg cfg_repo.
Proof. exact wf_cfg_repo. Qed.
Print Assumptions C05_cfg_repo_wf.
