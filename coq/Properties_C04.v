(* Properties_C04.v -- C04: a failed call leaves no partial result. *)
From Coq Require Import ZArith Lia.
From SC Require Import Base Wp Cfg CopySpec ModStr ModMem ProofsMem SpecMem PropStr FnProps.
From SC.Gen Require Import Consts.
Local Open Scope Z_scope.

(* link from the wp statements below to executions, whatever the allocation-failure oracle *)
Theorem C04_wp_sound : forall (A : Type) (fail : nat -> bool) (p : prog A) st Q,
  wp p (wm st) Q -> let '(a, st') := run fail p st in Q a (wm st').
Proof. exact (@wp_run). Qed.
Print Assumptions C04_wp_sound.

Theorem C04_strcpy_s : forall (c : cfg) (d dmax s destbos : Z) (m : mem) (L : Z), pre_strcpy_s c d dmax s destbos m L ->
  wp (strcpy_s c d dmax s destbos) m (fun r m' => r <> EOK -> cleared c 1 m' d dmax).
Proof. intros * H. apply (wpr_post (strcpy_s_spec H)). intros r m'. apply outcome_C04. Qed.
Print Assumptions C04_strcpy_s.
Theorem C04_wcscpy_s : forall (c : cfg) (d dmax s destbos : Z) (m : mem) (L g : Z), pre_wcscpy_s c d dmax s destbos m L g ->
  wp (wcscpy_s c d dmax s destbos) m (fun r m' => r <> EOK -> cleared c (wchar_w c) m' d dmax).
Proof. intros * H. apply (wpr_post (wcscpy_s_spec H)). intros r m'. apply outcome_C04. Qed.
Print Assumptions C04_wcscpy_s.
Theorem C04_strncpy_s : forall (c : cfg) (d dmax s slen destbos srcbos : Z) (m : mem) (t : Z), pre_strncpy_s c d dmax s slen destbos srcbos m t ->
  wp (strncpy_s c d dmax s slen destbos srcbos) m (fun r m' => r <> EOK -> cleared c 1 m' d dmax).
Proof. intros * H. apply (wpr_post (strncpy_s_spec H)). intros r m'. apply outcome_C04. Qed.
Print Assumptions C04_strncpy_s.
Theorem C04_strcat_s : forall (c : cfg) (d dmax s destbos : Z) (m : mem) (P L : Z), pre_strcat_s c d dmax s destbos m P L ->
  wp (strcat_s c d dmax s destbos) m (fun r m' => r <> EOK -> cleared c 1 m' d dmax).
Proof. intros * H. apply (wpr_post (strcat_s_spec H)). intros r m'. apply outcome_C04. Qed.
Print Assumptions C04_strcat_s.
Theorem C04_strncat_s : forall (c : cfg) (d dmax s slen destbos srcbos : Z) (m : mem) (P t : Z), pre_strncat_s c d dmax s slen destbos srcbos m P t ->
  wp (strncat_s c d dmax s slen destbos srcbos) m (fun r m' => r <> EOK -> cleared c 1 m' d dmax).
Proof. intros * H. apply (wpr_post (strncat_s_spec H)). intros r m'. apply outcome_C04. Qed.
Print Assumptions C04_strncat_s.

(* memory-copy family, non-null src whose known object size covers slen: the no-space and overlap failures leave dest zeroed
   (see mem_copy_post) *)
Theorem C04_memcpy_s : forall c d dmax s slen destbos srcbos m, d <> 0 -> s <> 0 -> 1 <= dmax -> 1 <= slen -> ((destbos = BOS_UNKNOWN /\ dmax <= rmax_mem c) \/ (destbos <> BOS_UNKNOWN /\ dmax <= destbos)) -> (srcbos = BOS_UNKNOWN \/ slen * 1 <= srcbos) -> wp (memcpy_s c d dmax s slen destbos srcbos) m (mem_copy_post c 1 true d (eff_dmax false dmax destbos) s slen m).
Proof. intros. apply mem_copy_gen_spec; auto; lia. Qed.
Print Assumptions C04_memcpy_s.
Theorem C04_memmove_s : forall c d dmax s slen destbos srcbos m, d <> 0 -> s <> 0 -> 1 <= dmax -> 1 <= slen -> ((destbos = BOS_UNKNOWN /\ dmax <= rmax_mem c) \/ (destbos <> BOS_UNKNOWN /\ dmax <= destbos)) -> (srcbos = BOS_UNKNOWN \/ slen * 1 <= srcbos) -> wp (memmove_s c d dmax s slen destbos srcbos) m (mem_copy_post c 1 false d (eff_dmax false dmax destbos) s slen m).
Proof. intros. apply mem_copy_gen_spec; auto; lia. Qed.
Print Assumptions C04_memmove_s.
Theorem C04_memcpy16_s : forall c d dmax s slen destbos srcbos m, d <> 0 -> s <> 0 -> 1 <= dmax -> 1 <= slen -> ((destbos = BOS_UNKNOWN /\ dmax <= rmax_mem c) \/ (destbos <> BOS_UNKNOWN /\ dmax <= destbos)) -> (srcbos = BOS_UNKNOWN \/ slen * 2 <= srcbos) -> wp (memcpy16_s c d dmax s slen destbos srcbos) m (mem_copy_post c 2 true d (eff_dmax true dmax destbos) s slen m).
Proof. intros. apply mem_copy_gen_spec; auto; lia. Qed.
Print Assumptions C04_memcpy16_s.
Theorem C04_memmove16_s : forall c d dmax s slen destbos srcbos m, d <> 0 -> s <> 0 -> 1 <= dmax -> 1 <= slen -> ((destbos = BOS_UNKNOWN /\ dmax <= rmax_mem c) \/ (destbos <> BOS_UNKNOWN /\ dmax <= destbos)) -> (srcbos = BOS_UNKNOWN \/ slen * 2 <= srcbos) -> wp (memmove16_s c d dmax s slen destbos srcbos) m (mem_copy_post c 2 false d (eff_dmax true dmax destbos) s slen m).
Proof. intros. apply mem_copy_gen_spec; auto; lia. Qed.
Print Assumptions C04_memmove16_s.
Theorem C04_memcpy32_s : forall c d dmax s slen destbos srcbos m, d <> 0 -> s <> 0 -> 1 <= dmax -> 1 <= slen -> ((destbos = BOS_UNKNOWN /\ dmax <= rmax_mem c) \/ (destbos <> BOS_UNKNOWN /\ dmax <= destbos)) -> (srcbos = BOS_UNKNOWN \/ slen * 4 <= srcbos) -> wp (memcpy32_s c d dmax s slen destbos srcbos) m (mem_copy_post c 4 true d (eff_dmax true dmax destbos) s slen m).
Proof. intros. apply mem_copy_gen_spec; auto; lia. Qed.
Print Assumptions C04_memcpy32_s.
Theorem C04_memmove32_s : forall c d dmax s slen destbos srcbos m, d <> 0 -> s <> 0 -> 1 <= dmax -> 1 <= slen -> ((destbos = BOS_UNKNOWN /\ dmax <= rmax_mem c) \/ (destbos <> BOS_UNKNOWN /\ dmax <= destbos)) -> (srcbos = BOS_UNKNOWN \/ slen * 4 <= srcbos) -> wp (memmove32_s c d dmax s slen destbos srcbos) m (mem_copy_post c 4 false d (eff_dmax true dmax destbos) s slen m).
Proof. intros. apply mem_copy_gen_spec; auto; lia. Qed.
Print Assumptions C04_memmove32_s.

Theorem C04_cfg_repo_wf : wf_cfg cfg_repo.
Proof. exact wf_cfg_repo. Qed.
Print Assumptions C04_cfg_repo_wf.
