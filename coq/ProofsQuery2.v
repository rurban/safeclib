(* ProofsQuery2.v -- C10: strprefix_s, strfirstdiff_s, strfirstsame_s compute the scans is_prefix and first_idx of the
   memory, which are characterised position by position; for every memory, every dmax. *)
From Coq Require Import ZArith Lia Bool.
From SC Require Import Base Wp Cfg CombProofs ModQuery ProofsQuery.
Local Open Scope Z_scope.

(* src (up to its terminator) agrees with dest on the first n characters *)
Fixpoint is_prefix (n : nat) (m : mem) (d s : Z) : bool :=
  if m s =? 0 then true else
  match n with O => true | S n' => if m d =? m s then is_prefix n' m (d + 1) (s + 1) else false end.

Lemma is_prefix_spec n : forall m d s,
  is_prefix n m d s = true <->
  (forall j, 0 <= j < Z.of_nat n -> (forall i, 0 <= i <= j -> m (s + i) <> 0) -> m (d + j) = m (s + j)).
Proof.
  induction n as [|n IH]; intros m d s; cbn [is_prefix].
  - destruct (m s =? 0); split; auto; intros _ j Hj; cbn in Hj; lia.
  - destruct (Z.eqb_spec (m s) 0) as [Es|Es].
    + split; [|reflexivity]. intros _ j Hj Hnz. exfalso. apply (Hnz 0); [lia|]. rewrite Z.add_0_r. exact Es.
    + destruct (Z.eqb_spec (m d) (m s)) as [E|E].
      * (* offset 0 is the pair just compared; offset 1 + j from d is offset j from d + 1 *)
        rewrite IH. split.
        -- intros H j Hj Hnz. destruct (Z.eq_dec j 0) as [->|Nj]; [rewrite !Z.add_0_r; exact E|].
           replace j with (1 + (j - 1)) by lia. rewrite !Z.add_assoc. apply H; [lia|].
           intros i Hi. rewrite <- Z.add_assoc. apply Hnz. lia.
        -- intros H j Hj Hnz. rewrite <- !Z.add_assoc. apply H; [lia|].
           intros i Hi. destruct (Z.eq_dec i 0) as [->|Ni]; [rewrite Z.add_0_r; exact Es|].
           replace i with (1 + (i - 1)) by lia. rewrite Z.add_assoc. apply Hnz. lia.
      * split; [discriminate|]. intros H. exfalso. apply E. rewrite <- (Z.add_0_r d), <- (Z.add_0_r s). apply H; [lia|].
        intros i Hi. replace i with 0 by lia. rewrite Z.add_0_r. exact Es.
Qed.

Lemma prefix_loop_wp n : forall d s m (Q : Z -> mem -> Prop),
  Q (if is_prefix n m d s then EOK else ESNOTFND) m -> wp (prefix_loop n d s) m Q.
Proof.
  induction n as [|n IH]; intros d s m Q HQ; cbn [prefix_loop wp is_prefix] in *; rewrite load1.
  - destruct (m s =? 0); exact HQ.
  - destruct (m s =? 0); [exact HQ|]. cbn [wp]. rewrite load1.
    destruct (m d =? m s); cbn [negb wp]; [apply IH|]; exact HQ.
Qed.

Definition nf (same : bool) : Z := if same then ESNOTFND else ESNODIFF.
(* the first index, among the first n positions where both strings still run, at which the characters (dis)agree *)
Fixpoint first_idx (same : bool) (n : nat) (m : mem) (d s i : Z) : option Z :=
  if m d =? 0 then None else if m s =? 0 then None else
  match n with
  | O => None
  | S n' => if Bool.eqb (m d =? m s) same then Some i else first_idx same n' m (d + 1) (s + 1) (i + 1)
  end.

Lemma first_idx_some same n : forall m d s i k, first_idx same n m d s i = Some k ->
  i <= k < i + Z.of_nat n /\ m (d + (k - i)) <> 0 /\ m (s + (k - i)) <> 0 /\
  Bool.eqb (m (d + (k - i)) =? m (s + (k - i))) same = true /\
  forall j, 0 <= j < k - i -> m (d + j) <> 0 /\ m (s + j) <> 0 /\ Bool.eqb (m (d + j) =? m (s + j)) same = false.
Proof.
  induction n as [|n IH]; intros m d s i k; cbn [first_idx].
  - destruct (m d =? 0); [discriminate|]. destruct (m s =? 0); discriminate.
  - destruct (Z.eqb_spec (m d) 0) as [Ed|Ed]; [discriminate|]. destruct (Z.eqb_spec (m s) 0) as [Es|Es]; [discriminate|].
    destruct (Bool.eqb (m d =? m s) same) eqn:E.
    + intros [= <-]. rewrite Z.sub_diag, !Z.add_0_r. repeat split; auto; try lia; try (intros j Hj; lia).
    + intros H. apply IH in H. destruct H as (H1 & H2 & H3 & H4 & H5).
      replace (k - i) with (1 + (k - (i + 1))) by lia. rewrite !Z.add_assoc.
      split; [lia|]. do 3 (split; [assumption|]).
      intros j Hj. destruct (Z.eq_dec j 0) as [->|Nj]; [rewrite !Z.add_0_r; auto|].
      replace j with (1 + (j - 1)) by lia. rewrite !Z.add_assoc. apply H5. lia.
Qed.
Lemma first_idx_none same n : forall m d s i, first_idx same n m d s i = None ->
  exists t, 0 <= t <= Z.of_nat n /\ (t = Z.of_nat n \/ m (d + t) = 0 \/ m (s + t) = 0) /\
  forall j, 0 <= j < t -> m (d + j) <> 0 /\ m (s + j) <> 0 /\ Bool.eqb (m (d + j) =? m (s + j)) same = false.
Proof.
  induction n as [|n IH]; intros m d s i; cbn [first_idx];
    [|destruct (Z.eqb_spec (m d) 0) as [Ed|Ed]; [|destruct (Z.eqb_spec (m s) 0) as [Es|Es]]].
  (* the three ways to stop at once *)
  1-3: intros _; exists 0; rewrite !Z.add_0_r; split; [lia|]; split; [auto|]; intros j Hj; lia.
  destruct (Bool.eqb (m d =? m s) same) eqn:E; [discriminate|]. intros H. apply IH in H. destruct H as (t & Ht & Hend & Hall).
  exists (1 + t). rewrite !Z.add_assoc. split; [lia|]. split; [lia|].
  intros j Hj. destruct (Z.eq_dec j 0) as [->|Nj]; [rewrite !Z.add_0_r; auto|].
  replace j with (1 + (j - 1)) by lia. rewrite !Z.add_assoc. apply Hall. lia.
Qed.

Lemma first_loop_wp same rp n : forall d s i m (Q : Z -> mem -> Prop),
  (match first_idx same n m d s i with
   | Some k => Q EOK (store m 8 rp k)
   | None => Q (nf same) m
   end) -> wp (first_loop same n d s i rp) m Q.
Proof.
  induction n as [|n IH]; intros d s i m Q HQ; cbn [first_loop wp first_idx] in *; rewrite load1.
  - destruct (m d =? 0); [exact HQ|]. cbn [wp]. rewrite load1. destruct (m s =? 0); exact HQ.
  - destruct (m d =? 0); [exact HQ|]. cbn [wp]. rewrite load1. destruct (m s =? 0); [exact HQ|].
    destruct (Bool.eqb (m d =? m s) same); cbn [wp]; [exact HQ|]. apply IH. exact HQ.
Qed.

Lemma first_idx_ext same n : forall m1 m2 d s i,
  (forall x, d <= x <= d + Z.of_nat n \/ s <= x <= s + Z.of_nat n -> m1 x = m2 x) ->
  first_idx same n m1 d s i = first_idx same n m2 d s i.
Proof.
  induction n as [|n IH]; intros m1 m2 d s i H; cbn [first_idx]; rewrite (H d), (H s) by lia; [reflexivity|].
  rewrite (IH m1 m2 (d + 1) (s + 1)); [reflexivity|]. intros x Hx. apply H. lia.
Qed.

Theorem strfirst_s_spec same c dest dmax src resultp m :
  resultp <> 0 -> dest <> 0 -> src <> 0 -> 0 < dmax <= rmax_str c -> dmax < 18446744073709551616 ->
  (forall j, 0 <= j <= dmax -> ~ ext resultp 8 (dest + j) /\ ~ ext resultp 8 (src + j)) ->
  wp (strfirst_s same c dest dmax src resultp BOS_UNKNOWN) m (fun r m' =>
     match first_idx same (Z.to_nat dmax) m dest src 0 with
     | Some k => r = EOK /\ load m' 8 resultp = k /\ 0 <= k < dmax
     | None => r = nf same /\ load m' 8 resultp = 0
     end /\ forall x, ~ ext resultp 8 x -> m' x = m x).
Proof.
  intros Hr Hd Hs Hm Hbig Hdisj. unfold strfirst_s. rewrite chk_max_ovr_ok by lia. tests. cbn [wp].
  set (m1 := store m 8 resultp 0).
  assert (He : first_idx same (Z.to_nat dmax) m1 dest src 0 = first_idx same (Z.to_nat dmax) m dest src 0).
  { apply first_idx_ext. intros x Hx. unfold ext in Hdisj. pose proof (Hdisj (x - dest)). pose proof (Hdisj (x - src)).
    apply store_out. lia. }
  apply first_loop_wp. rewrite He. destruct (first_idx same (Z.to_nat dmax) m dest src 0) as [k|] eqn:E.
  - apply first_idx_some in E. destruct E as (Hk & _). rewrite Z2Nat.id in Hk by lia. split.
    + split; [reflexivity|]. split; [|lia]. rewrite load_store_same by lia. apply Z.mod_small. change (256 ^ 8) with 18446744073709551616. lia.
    + intros x Hx. unfold ext in Hx. subst m1. rewrite !store_out by lia. reflexivity.
  - split.
    + split; [reflexivity|]. subst m1. rewrite load_store_same by lia. reflexivity.
    + intros x Hx. unfold ext in Hx. subst m1. rewrite store_out by lia. reflexivity.
Qed.
