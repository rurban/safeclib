(* ProofsQuery.v -- C10: the query-function models store only through their result pointer (operands are never
   modified, for all arguments), and functional results of memcmp_s / memchr_s against the libc specification. *)
From Coq Require Import ZArith Lia.
From SC Require Import Base Wp Cfg CombProofs ModQuery ProofsTs.
Local Open Scope Z_scope.

Lemma hfail_writes P hk code : writes_in P (hfail hk code).
Proof. exact I. Qed.
Global Hint Unfold hfail chk_max_ovr : walk.

Section Writes.
Variable P : Z -> Prop.
Lemma strcmp_loop_writes n : forall d s slen srcbos k, (forall d' s', writes_in P (k d' s')) -> writes_in P (strcmp_loop n d s slen srcbos k).
Proof. induction n as [|n IH]; walk. Qed.
Lemma strcasecmp_loop_writes n : forall d s r, range_in P r 4 -> writes_in P (strcasecmp_loop n d s r).
Proof. induction n as [|n IH]; walk. Qed.
Lemma memcmp_loop_writes n : forall d s r, range_in P r 4 -> writes_in P (memcmp_loop n d s r).
Proof. induction n as [|n IH]; walk. Qed.
Lemma strchr_m_writes f : forall p ch k, (forall r, writes_in P (k r)) -> writes_in P (strchr_m f p ch k).
Proof. induction f as [|f IH]; walk. Qed.
Lemma memchr_m_writes n : forall p ch k, (forall r, writes_in P (k r)) -> writes_in P (memchr_m n p ch k).
Proof. induction n as [|n IH]; walk. Qed.
Lemma memrchr_m_writes n : forall p ch k, (forall r, writes_in P (k r)) -> writes_in P (memrchr_m n p ch k).
Proof. induction n as [|n IH]; walk. Qed.
Lemma in_set_writes n : forall s a k, (forall b, writes_in P (k b)) -> writes_in P (in_set n s a k).
Proof. induction n as [|n IH]; walk. Qed.
Lemma pbrk_inner_writes f : forall ps a len k, (forall r, writes_in P (k r)) -> writes_in P (pbrk_inner f ps a len k).
Proof. induction f as [|f IH]; walk. Qed.
End Writes.
Global Hint Resolve strcasecmp_loop_writes memcmp_loop_writes : walk.
Global Hint Extern 2 (writes_in _ (strcmp_loop _ _ _ _ _ _)) => (apply strcmp_loop_writes; walk) : walk.
Global Hint Extern 2 (writes_in _ (strchr_m _ _ _ _)) => (apply strchr_m_writes; walk) : walk.
Global Hint Extern 2 (writes_in _ (memchr_m _ _ _ _)) => (apply memchr_m_writes; walk) : walk.
Global Hint Extern 2 (writes_in _ (memrchr_m _ _ _ _)) => (apply memrchr_m_writes; walk) : walk.
Global Hint Extern 2 (writes_in _ (in_set _ _ _ _)) => (apply in_set_writes; walk) : walk.
Global Hint Extern 2 (writes_in _ (pbrk_inner _ _ _ _ _)) => (apply pbrk_inner_writes; walk) : walk.
Lemma span_loop_writes P inc n : forall d src slen cp cnt, range_in P cp 8 -> writes_in P (span_loop inc n d src slen cp cnt).
Proof. induction n as [|n IH]; walk. Qed.
Lemma pbrk_loop_writes P n : forall d src slen fp fuel, range_in P fp 8 -> writes_in P (pbrk_loop n d src slen fp fuel).
Proof. induction n as [|n IH]; walk. Qed.
Lemma prefix_loop_writes P n : forall d s, writes_in P (prefix_loop n d s).
Proof. induction n as [|n IH]; walk. Qed.
Lemma first_loop_writes P same n : forall d s i r, range_in P r 8 -> writes_in P (first_loop same n d s i r).
Proof. induction n as [|n IH]; walk. Qed.
Lemma wnlen_loop_writes P w n : forall p cnt orig, writes_in P (wnlen_loop w n p cnt orig).
Proof. induction n as [|n IH]; walk. Qed.
Global Hint Resolve span_loop_writes pbrk_loop_writes prefix_loop_writes first_loop_writes wnlen_loop_writes : walk.

Lemma chk_max_ovr_ok hk rmax dmax bos k :
  (bos = BOS_UNKNOWN /\ dmax <= rmax) \/ (bos <> BOS_UNKNOWN /\ dmax <= bos) -> chk_max_ovr hk rmax dmax bos k = k tt.
Proof. intros [[-> Hr]|[Hn Hr]]; unfold chk_max_ovr; tests; reflexivity. Qed.

Lemma memcmp_loop_wp n : forall d s diff m (Q : Z -> mem -> Prop),
  Q EOK (if first_diff_sign n m d s =? 0 then m else store m 4 diff (i32 (first_diff_sign n m d s))) ->
  wp (memcmp_loop n d s diff) m Q.
Proof.
  induction n as [|n IH]; intros d s diff m Q HQ; cbn [memcmp_loop wp first_diff_sign] in *; [exact HQ|].
  rewrite !load1. destruct (m d =? m s) eqn:E; cbn [negb wp].
  - apply IH. apply Z.eqb_eq in E. rewrite E, Z.ltb_irrefl in HQ. exact HQ.
  - apply Z.eqb_neq in E. destruct (m d <? m s) eqn:E1; [exact HQ|]. destruct (m s <? m d) eqn:E2; [exact HQ|lia].
Qed.
Lemma first_diff_sign_ext n : forall m1 m2 d s,
  (forall x, d <= x < d + Z.of_nat n \/ s <= x < s + Z.of_nat n -> m1 x = m2 x) ->
  first_diff_sign n m1 d s = first_diff_sign n m2 d s.
Proof.
  induction n as [|n IH]; intros m1 m2 d s H; cbn [first_diff_sign]; [reflexivity|].
  rewrite (H d), (H s) by lia. rewrite (IH m1 m2 (d + 1) (s + 1)); [reflexivity|]. intros x Hx. apply H. lia.
Qed.
Lemma first_diff_sign_same n : forall m p, first_diff_sign n m p p = 0.
Proof. induction n as [|n IH]; intros m p; cbn [first_diff_sign]; [reflexivity|]. rewrite Z.ltb_irrefl. apply IH. Qed.
Theorem memcmp_s_spec c dest dmax src slen diff m :
  diff <> 0 -> dest <> 0 -> src <> 0 -> 0 < slen <= dmax -> dmax <= rmax_mem c ->
  (forall i, 0 <= i < slen -> ~ ext diff 4 (dest + i) /\ ~ ext diff 4 (src + i)) ->
  wp (memcmp_s c dest dmax src slen diff BOS_UNKNOWN BOS_UNKNOWN) m (fun r m' =>
     r = EOK /\ load m' 4 diff = i32 (first_diff_sign (Z.to_nat slen) m dest src)).
Proof.
  intros Hd Hde Hs Hl Hr Hdisj. unfold memcmp_s. rewrite !chk_max_ovr_ok by lia. tests.
  destruct (dest =? src) eqn:Eq; cbn [wp].
  - apply Z.eqb_eq in Eq. subst src. split; [reflexivity|]. rewrite first_diff_sign_same, load_store_same by lia. reflexivity.
  - apply memcmp_loop_wp. split; [reflexivity|]. replace (Z.min dmax slen) with slen by lia.
    (* the scan runs after the two stores to *diff, which the operands do not overlap *)
    rewrite (first_diff_sign_ext _ _ m).
    + destruct (first_diff_sign (Z.to_nat slen) m dest src =? 0) eqn:E0; rewrite load_store_same by lia.
      * apply Z.eqb_eq in E0. rewrite E0. reflexivity.
      * unfold i32. apply Z.mod_mod. lia.
    + intros x Hx. unfold ext in Hdisj. pose proof (Hdisj (x - dest)). pose proof (Hdisj (x - src)). rewrite !store_out by lia. reflexivity.
Qed.

Fixpoint first_byte (n : nat) (m : mem) (p ch : Z) : Z :=      (* memchr *)
  match n with O => 0 | S n' => if m p =? ch then p else first_byte n' m (p + 1) ch end.
Lemma memchr_m_wp n : forall p ch k m Q, wp (k (first_byte n m p (ch mod 256))) m Q -> wp (memchr_m n p ch k) m Q.
Proof.
  induction n as [|n IH]; intros p ch k m Q H; cbn [memchr_m wp first_byte] in *; [exact H|].
  rewrite load1. destruct (m p =? ch mod 256); [exact H|apply IH, H].
Qed.
Lemma first_byte_ext n ch : forall m1 m2 p, (forall x, p <= x < p + Z.of_nat n -> m1 x = m2 x) ->
  first_byte n m1 p ch = first_byte n m2 p ch.
Proof.
  induction n as [|n IH]; intros m1 m2 p H; cbn [first_byte]; [reflexivity|].
  rewrite (H p) by lia. rewrite (IH m1 m2 (p + 1)); [reflexivity|]. intros x Hx. apply H. lia.
Qed.
Lemma first_byte_range n m ch : forall p, first_byte n m p ch = 0 \/ p <= first_byte n m p ch < p + Z.of_nat n.
Proof.
  induction n as [|n IH]; intros p; cbn [first_byte]; [left; reflexivity|]. destruct (m p =? ch); [right; lia|].
  destruct (IH (p + 1)) as [H|H]; [left; exact H|right; lia].
Qed.
Theorem memchr_s_spec c dest dmax ch resultp m :
  resultp <> 0 -> 0 < dmax <= rmax_mem c -> 0 <= ch <= 255 ->
  (forall i, 0 <= i < dmax -> ~ ext resultp 8 (dest + i)) -> 0 < dest -> dest + dmax <= 18446744073709551616 ->
  wp (memchr_s c dest dmax ch resultp BOS_UNKNOWN) m (fun r m' =>
     let f := first_byte (Z.to_nat dmax) m dest ch in
     load m' 8 resultp = f /\ r = (if f =? 0 then ESNOTFND else EOK)).
Proof.
  intros Hr Hl Hc Hdisj Hdr Hdr2. unfold memchr_s, sx32. rewrite chk_max_ovr_ok, !Z.mod_small by lia. tests.
  cbn [wp]. apply memchr_m_wp. rewrite Z.mod_small by lia.
  rewrite (first_byte_ext _ _ _ m) by (intros x Hx; specialize (Hdisj (x - dest)); unfold ext in Hdisj; apply store_out; lia).
  pose proof (first_byte_range (Z.to_nat dmax) m ch dest) as Hfr. set (f := first_byte (Z.to_nat dmax) m dest ch) in *.
  cbn [wp]. destruct (f =? 0) eqn:E0; cbn [wp]; (split; [|reflexivity]); rewrite load_store_same by lia; apply Z.mod_small;
    change (256 ^ 8) with 18446744073709551616; lia.
Qed.
