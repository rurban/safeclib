(* EraseShape.v -- C18(b): the shape of the erase functions (which stores are volatile; barriers are recorded
   but protect nothing, see [protected]) and what an optimiser is allowed to remove. *)
From Coq Require Import List Bool.
Import ListNotations.

Inductive act :=
| AStoreV            (* store(s) through a volatile-qualified lvalue *)
| AStoreP            (* plain store(s), or a libc memset *)
| ABarrier           (* MEMORY_BARRIER / compiler memory clobber *)
| ACall (prim : nat) (* call of mem_prim_set / set16 / set32 (index into the primitive shapes) *)
| AExplicit.         (* explicit_bzero: not removable by contract *)

Definition is_barrier (a : act) : bool := match a with ABarrier => true | _ => false end.
Definition is_plain (a : act) : bool := match a with AStoreP => true | _ => false end.
(* a call outside the list of primitive shapes counts as a plain store *)
Definition flatten (prims : list (list act)) (l : list act) : list act :=
  flat_map (fun a => match a with ACall i => nth i prims [AStoreP] | x => [x] end) l.

(* every store is through a volatile lvalue (or is explicit_bzero).  A plain store followed by a barrier does not
   count, because that is not what gcc does for an object that does not escape: built with -O2 -flto, plain 64-bit word
   stores in front of _mm_mfence() in mem_prim_set were removed when the caller freed the buffer right after memset_s
   (harness/erase_client.c shows it; the word stores of mem_prim_set are volatile for that reason).  A barrier orders and
   keeps accesses to memory other code may see; it does not keep stores to a dying private object. *)
Fixpoint protected (l : list act) : bool :=
  match l with
  | [] => true
  | a :: t => negb (is_plain a) && protected t
  end.

(* abstract optimiser: it may delete the actions selected by [drop], but only plain stores *)
Fixpoint opt (drop : list bool) (l : list act) : list act :=
  match l, drop with
  | a :: t, d :: ds => if d && is_plain a then opt ds t else a :: opt ds t
  | l, [] => l
  | [], _ => []
  end.
Lemma unprotected_example : opt [true] [AStoreP] = [] /\ opt [true; false] [AStoreP; ABarrier] = [ABarrier].
Proof. split; reflexivity. Qed.
