(* UniProofs.v -- C17: the algorithmic part of normalisation, for arbitrary tables; what is asked of the tables (the
   hypotheses here) is decided on the library's in Properties_C17.v. *)
From Coq Require Import List ZArith Bool Lia FMapPositive Permutation.
From SC Require Import UniNorm.
Import ListNotations.
Local Open Scope Z_scope.
Local Ltac Zify.zify_post_hook ::= Z.div_mod_to_equations.

Lemma list_eqb_eq a b : list_eqb a b = true -> a = b.
Proof. revert b; induction a as [|x a IH]; intros [|y b] H; simpl in H; try discriminate; [reflexivity|]. apply andb_true_iff in H. destruct H as [H1 H2]. f_equal; [lia|apply IH, H2]. Qed.
Lemma list_eqb_refl a : list_eqb a a = true.
Proof. induction a as [|x a IH]; [reflexivity|]. cbn [list_eqb]. rewrite Z.eqb_refl. exact IH. Qed.
Lemma find_mk_map {A} (l : list (Z * A)) k v : PositiveMap.find k (mk_map l) = Some v -> exists z, In (z, v) l /\ key z = k.
Proof.
  induction l as [|[z a] t IH]; cbn [mk_map fold_right fst snd]; intros H.
  - rewrite PositiveMap.gempty in H. discriminate.
  - destruct (Pos.eq_dec k (key z)) as [E|E].
    + subst k. rewrite PositiveMap.gss in H. inversion H; subst. exists z. split; [left; reflexivity|reflexivity].
    + rewrite PositiveMap.gso in H by exact E. destruct (IH H) as [z' [I K]]. exists z'. split; [right; exact I|exact K].
Qed.

Global Hint Unfold SBase LBase VBase TBase LCount VCount TCount NCount SCount : hangul.

Lemma hangul_decomp_spec s : is_S s = true ->
  exists l v t, 0 <= l < LCount /\ 0 <= v < VCount /\ 0 <= t < TCount /\ s = SBase + (l * VCount + v) * TCount + t /\
    hangul_decomp s = if t =? 0 then [LBase + l; VBase + v] else [LBase + l; VBase + v; TBase + t].
Proof.
  unfold is_S, hangul_decomp. autounfold with hangul. intros HS.   (* 44032 = SBase, 4519 = TBase, 21 * 28 = NCount *)
  exists ((s - 44032) / (21 * 28)), ((s - 44032) mod (21 * 28) / 28), ((s - 44032) mod 28).
  repeat split; try lia.
  destruct (Z.eqb_spec (4519 + (s - 44032) mod 28) 4519), (Z.eqb_spec ((s - 44032) mod 28) 0); try reflexivity; lia.
Qed.
Lemma composite_LV T l v : 0 <= l < LCount -> 0 <= v < VCount ->
  composite T (LBase + l) (VBase + v) = SBase + (l * VCount + v) * TCount.
Proof.
  intros Hl Hv. unfold composite, is_L, is_V. autounfold with hangul in *.
  replace (_ && _) with true by lia. lia.
Qed.
Lemma composite_LVT T l v t : 0 <= l < LCount -> 0 <= v < VCount -> 0 < t < TCount ->
  composite T (SBase + (l * VCount + v) * TCount) (TBase + t) = SBase + (l * VCount + v) * TCount + t.
Proof.
  intros Hl Hv Ht. unfold composite, is_L, is_V, is_LV, is_S, is_T. autounfold with hangul in *.
  replace (_ && _) with false by lia. replace (_ && _) with true by lia. lia.
Qed.
Lemma hangul_decomp_range s : is_S s = true -> Forall (fun c => 0x1100 <= c < 0x1200) (hangul_decomp s).
Proof.
  intros HS. destruct (hangul_decomp_spec s HS) as (l & v & t & Hl & Hv & Ht & _ & ->). autounfold with hangul in *.
  destruct (t =? 0); repeat constructor; lia.
Qed.
Lemma jamo_range_forallb (f : Z -> bool) : forallb f (map (fun i => 0x1100 + Z.of_nat i) (seq 0 256)) = true ->
  forall c, 0x1100 <= c < 0x1200 -> f c = true.
Proof.
  rewrite forallb_forall. intros H c Hc. apply H, in_map_iff. exists (Z.to_nat (c - 0x1100)). split; [lia|]. apply in_seq. lia.
Qed.

Section Order.
Variable T : tables.
Notation ccc := (ccc T). Notation ins := (ins T). Notation reorder := (reorder T).
Lemma ccc_nonneg c : 0 <= ccc c.
Proof. unfold UniNorm.ccc. destruct (c <? 0); [lia|]. destruct (PositiveMap.find _ _); lia. Qed.
Definition okpair (a b : Z) : Prop := ccc b = 0 \/ ccc a <= ccc b.
Fixpoint ordered (l : list Z) : Prop :=
  match l with [] => True | a :: t => match t with [] => True | b :: _ => okpair a b end /\ ordered t end.
Lemma ins_ordered c l : ordered l -> ordered (ins c l).
Proof.
  induction l as [|d t IH]; intros H; [simpl; auto|].
  cbn [UniNorm.ins]. destruct ((0 <? ccc d) && (ccc d <? ccc c)) eqn:E.
  - destruct H as [H1 H2]. specialize (IH H2). split; [|exact IH].
    destruct t as [|b t']; cbn [UniNorm.ins].
    + unfold okpair. lia.
    + destruct ((0 <? ccc b) && (ccc b <? ccc c)) eqn:E2; unfold okpair in *; lia.
  - split; [|exact H]. unfold okpair. pose proof (ccc_nonneg d). lia.
Qed.
Lemma reorder_ordered s : ordered (reorder s).
Proof. induction s as [|c t IH]; [simpl; auto|]. apply ins_ordered, IH. Qed.
Lemma ins_here c l : match l with [] => True | d :: _ => okpair c d end -> ins c l = c :: l.
Proof.
  destruct l as [|d t]; [reflexivity|]. unfold okpair. intros H. cbn [UniNorm.ins].
  destruct ((0 <? ccc d) && (ccc d <? ccc c)) eqn:E; [lia|reflexivity].
Qed.
Lemma reorder_fixed l : ordered l -> reorder l = l.
Proof.
  induction l as [|c t IH]; [reflexivity|]. intros H. unfold UniNorm.reorder in *. cbn [fold_right].
  rewrite IH by apply H. apply ins_here, H.
Qed.
Lemma ordered_starters l : Forall (fun c => ccc c = 0) l -> ordered l.
Proof. induction 1 as [|a l _ Hl IH]; [exact I|]. split; [|exact IH]. destruct Hl as [|b l Hb _]; [exact I|left; exact Hb]. Qed.
Lemma reorder_idem s : reorder (reorder s) = reorder s.
Proof. apply reorder_fixed, reorder_ordered. Qed.
Lemma ins_perm c l : Permutation (c :: l) (ins c l).
Proof.
  induction l as [|d t IH]; [apply Permutation_refl|]. cbn [UniNorm.ins].
  destruct (_ && _); [|apply Permutation_refl].
  eapply perm_trans; [apply perm_swap|]. apply perm_skip, IH.
Qed.
Lemma reorder_perm s : Permutation s (reorder s).
Proof.
  induction s as [|c t IH]; [constructor|]. unfold UniNorm.reorder in *. cbn [fold_right].
  eapply perm_trans; [apply perm_skip, IH|]. apply ins_perm.
Qed.
Lemma ins_app_starter c x l1 l2 : ccc x = 0 -> ins c (l1 ++ x :: l2) = ins c l1 ++ x :: l2.
Proof.
  intros Hx. induction l1 as [|d t IH]; cbn [app UniNorm.ins].
  - rewrite Hx. reflexivity.
  - destruct (_ && _); [rewrite IH|]; reflexivity.
Qed.
Lemma reorder_app_starter l1 x l2 : ccc x = 0 -> reorder (l1 ++ x :: l2) = reorder l1 ++ x :: reorder l2.
Proof.
  intros Hx. unfold UniNorm.reorder. induction l1 as [|c t IH]; cbn [app fold_right].
  - apply ins_here. destruct (fold_right ins [] l2) as [|d t]; [exact I|]. right. pose proof (ccc_nonneg d). lia.
  - rewrite IH. apply ins_app_starter, Hx.
Qed.

(* NFD is idempotent when every code point a decomposition yields (table entry or jamo) is its own decomposition *)
Notation decomp := (decomp T).
Definition fixedb (c : Z) : bool := list_eqb (decomp c) [c].
Lemma flat_fixed l : Forall (fun c => fixedb c = true) l -> flat_map decomp l = l.
Proof. induction 1 as [|c t H _ IH]; [reflexivity|]. cbn [flat_map]. rewrite (list_eqb_eq _ _ H), IH. reflexivity. Qed.
Definition closed (dl : list (Z * list Z)) : bool :=
  forallb (fun kv => forallb fixedb (snd kv)) dl && forallb fixedb (map (fun i => 0x1100 + Z.of_nat i) (seq 0 256)).
Variable dl : list (Z * list Z).
Hypothesis Hdl : t_decomp T = mk_map dl.
Hypothesis Hclosed : closed dl = true.
Lemma decomp_fixed c : Forall (fun x => fixedb x = true) (decomp c).
Proof.
  unfold closed in Hclosed. apply andb_true_iff in Hclosed. destruct Hclosed as [H1 H2].
  rewrite forallb_forall in H1.
  assert (Self : decomp c = [c] -> Forall (fun x => fixedb x = true) (decomp c)).
  { intros E. rewrite E. constructor; [|constructor]. unfold fixedb. rewrite E. apply list_eqb_refl. }
  revert Self. unfold UniNorm.decomp. destruct (is_S c) eqn:ES.
  - intros _. eapply Forall_impl; [|exact (hangul_decomp_range c ES)]. exact (jamo_range_forallb _ H2).
  - destruct (c <? 0); [auto|]. destruct (PositiveMap.find (key c) (t_decomp T)) eqn:EF; [intros _|auto].
    rewrite Hdl in EF. destruct (find_mk_map _ _ _ EF) as [z [I _]]. apply Forall_forall, forallb_forall, (H1 _ I).
Qed.
Lemma nfd_idem s : nfd T (nfd T s) = nfd T s.
Proof.
  unfold nfd. rewrite flat_fixed; [apply reorder_idem|]. eapply Permutation_Forall; [apply reorder_perm|].
  apply Forall_flat_map, Forall_forall. intros c _. apply decomp_fixed.
Qed.
End Order.

Section Compose.
Variable T : tables.
Notation ccc := (ccc T). Notation cstep := (cstep T). Notation compose2 := (compose2 T). Notation compose := (compose T).
Lemma cstep_first c : ccc c = 0 -> cstep cinit c false = mkC true c 0 [] [].
Proof. intros Hc. unfold UniNorm.cstep. cbn [cinit c_valid negb]. rewrite Hc. reflexivity. Qed.
(* last starter S, c_pre = 0 and nothing pending: c is not blocked *)
Lemma cstep_combine S c out last comp : ccc c = 0 -> compose2 S c = Some comp ->
  cstep (mkC true S 0 [] out) c last = if last then mkC true c 0 [] (out ++ [comp]) else mkC true comp 0 [] out.
Proof.
  intros Hc Hcomp. unfold UniNorm.cstep. cbn [c_valid c_S c_pre c_seq c_out negb]. rewrite Hc.
  cbn [Z.eqb Z.ltb Z.compare negb andb orb]. rewrite Hcomp. destruct last; reflexivity.
Qed.
Lemma compose_pair a b ab : ccc a = 0 -> ccc b = 0 -> compose2 a b = Some ab -> compose [a; b] = [ab].
Proof.
  intros Ha Hb Hab. unfold UniNorm.compose. cbn [crun].
  rewrite (cstep_first a Ha), (cstep_combine a b [] true ab Hb Hab). reflexivity.
Qed.
Lemma compose_triple a b c ab abc : ccc a = 0 -> ccc b = 0 -> ccc c = 0 ->
  compose2 a b = Some ab -> compose2 ab c = Some abc -> compose [a; b; c] = [abc].
Proof.
  intros Ha Hb Hc Hab Habc. unfold UniNorm.compose. cbn [crun].
  rewrite (cstep_first a Ha), (cstep_combine a b [] false ab Hb Hab), (cstep_combine ab c [] true abc Hc Habc). reflexivity.
Qed.
End Compose.

Section Hangul.
Variable T : tables.
(* as a boolean, so that [jamo_range_forallb] yields it from one evaluation over the 256 code points *)
Hypothesis jamo_plain : forall c, 0x1100 <= c < 0x1200 -> (ccc T c =? 0) && fixedb T c = true.
Hypothesis syllable_kept : forall s, is_S s = true -> excluded T s = false.
Lemma jamo_starter c : 0x1100 <= c < 0x1200 -> ccc T c = 0.
Proof. intros H. apply jamo_plain, andb_true_iff in H. lia. Qed.
Lemma jamo_fixed c : 0x1100 <= c < 0x1200 -> fixedb T c = true.
Proof. intros H. apply jamo_plain, andb_true_iff in H. apply H. Qed.
Lemma compose2_syllable a b s : composite T a b = s -> is_S s = true -> compose2 T a b = Some s.
Proof.
  intros <- HS. unfold compose2. rewrite (syllable_kept _ HS). unfold is_S, SBase in HS.
  replace (composite T a b =? 0) with false by lia. reflexivity.
Qed.
Lemma compose_hangul s : is_S s = true -> compose T (hangul_decomp s) = [s].
Proof.
  intros HS. destruct (hangul_decomp_spec s HS) as (l & v & t & Hl & Hv & Ht & -> & ->).
  assert (LV : compose2 T (LBase + l) (VBase + v) = Some (SBase + (l * VCount + v) * TCount)).
  { apply compose2_syllable; [apply composite_LV; assumption|]. unfold is_S. autounfold with hangul in *. lia. }
  destruct (Z.eqb_spec t 0) as [->|Ht0].
  - rewrite Z.add_0_r. apply compose_pair; [| |exact LV]; apply jamo_starter; autounfold with hangul in *; lia.
  - eapply compose_triple; [| | |exact LV|apply compose2_syllable; [apply composite_LVT; lia|exact HS]];
      apply jamo_starter; autounfold with hangul in *; lia.
Qed.
Lemma hangul_syllable s : is_S s = true ->
  nfd T [s] = hangul_decomp s /\ nfc T (hangul_decomp s) = [s] /\ nfc T [s] = [s].
Proof.
  intros HS. pose proof (hangul_decomp_range s HS) as J.
  assert (O : reorder T (hangul_decomp s) = hangul_decomp s).
  { apply reorder_fixed, ordered_starters. eapply Forall_impl; [|exact J]. exact jamo_starter. }
  assert (N : nfd T [s] = hangul_decomp s).
  { unfold nfd. cbn [flat_map]. rewrite app_nil_r. unfold decomp. rewrite HS. exact O. }
  assert (D : nfd T (hangul_decomp s) = hangul_decomp s).
  { unfold nfd. rewrite flat_fixed; [exact O|]. eapply Forall_impl; [|exact J]. exact jamo_fixed. }
  unfold nfc. rewrite N, D. auto using compose_hangul.
Qed.
End Hangul.

Lemma syllables_kept T xl : t_excl T = mk_map (map (fun z => (z, tt)) xl) ->
  forallb (fun z => negb (is_S z)) xl = true -> forall s, is_S s = true -> excluded T s = false.
Proof.
  intros HT HX s HS. unfold excluded. rewrite HT. destruct (PositiveMap.find _ _) as [u|] eqn:F; [exfalso|reflexivity].
  destruct (find_mk_map _ _ _ F) as (z & Hz & K). apply in_map_iff in Hz. destruct Hz as (z' & E & Hz). inversion E; subst z'.
  assert (z = s) as -> by (unfold key in K; unfold is_S, SBase in HS; lia).
  rewrite forallb_forall in HX. specialize (HX s Hz). rewrite HS in HX. discriminate.
Qed.

(* as in Utf8.v *)
Ltac Zify.zify_post_hook ::= idtac.
