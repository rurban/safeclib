(* SpecExt2.v -- functional specifications (C06, C08) of strset_s and strnset_s: wcsnset_s (SpecExt4.v) at element width 1. *)
From Coq Require Import ZArith Lia Bool.
From SC Require Import Base Wp Cfg CombProofs SpecStr ModExt ModExt2 SpecExt SpecExt4.
Local Open Scope Z_scope.

Definition inb (lo hi a : Z) : bool := (lo <=? a) && (a <? hi).
Lemma inbP lo hi a : reflect (lo <= a < hi) (inb lo hi a).
Proof. apply iff_reflect. unfold inb. rewrite andb_true_iff, Z.leb_le, Z.ltb_lt. tauto. Qed.

(* what a successful fill leaves: t characters of value, then (null-slack, terminator inside the window) zeros to dest+dmax *)
Definition set_post (c : cfg) (d dmax lim v : Z) (m : mem) (r : Z) (m' : mem) : Prop :=
  r = EOK /\ exists t, 0 <= t <= lim /\
    (forall i, 0 <= i < t -> m (d + i) <> 0) /\ (t < lim -> m (d + t) = 0) /\
    forall a, m' a = if inb d (d + t) a then v mod 256
                     else if null_slack c && (t <? dmax) && (m (d + t) =? 0) && inb (d + t) (d + dmax) a then 0 else m a.

Lemma set_str_loop_wide c v n (k k' : nat -> Z -> prog Z) (Q : Z -> mem -> Prop) :
  (forall r p m, wp (k' r p) m Q -> wp (k r p) m Q) ->
  forall d m, wp (wset_loop 1 v n d k') m Q -> wp (set_str_loop c v n d k) m Q.
Proof.
  intros Hk. induction n as [|n IH]; intros d m; cbn [wset_loop set_str_loop wp]; [apply Hk|].
  destruct (load m 1 d =? 0); cbn [wp]; [apply Hk|apply IH].
Qed.
Lemma slack_if_nul_wide c rem p m (Q : Z -> mem -> Prop) : wp (wslack_if_nul c 1 rem p) m Q -> wp (slack_if_nul c rem p) m Q.
Proof. unfold wslack_if_nul, slack_if_nul. rewrite Z.mul_1_r. exact (fun H => H). Qed.

Lemma elem1 m d i : load m 1 (d + i * 1) = m (d + i).
Proof. rewrite load1, Z.mul_1_r. reflexivity. Qed.
Lemma wnset_post_narrow c d dmax n v m r m' : wnset_post c 1 d dmax n v m r m' -> set_post c d dmax n v m r m'.
Proof.
  intros (Hr & t & Ht & Hnz & Hz & Hval & Hout). split; [exact Hr|]. exists t. split; [exact Ht|].
  split; [intros i Hi; rewrite <- elem1; apply Hnz, Hi|]. split; [intros Hl; rewrite <- elem1; apply Hz, Hl|].
  intros a. destruct (inbP d (d + t) a) as [Ha|Ha].
  - replace a with (d + (a - d)) at 1 by lia. rewrite <- elem1. apply Hval. lia.
  - rewrite Hout, elem1 by lia. unfold in_range, inb. rewrite !Z.mul_1_r. replace (d + t + (dmax - t)) with (d + dmax) by lia. reflexivity.
Qed.

Lemma set_fill_wp c v d dmax n (rem : nat -> Z -> Z) m : 0 <= n <= dmax ->
  (forall t, (t <= Z.to_nat n)%nat -> rem (Z.to_nat n - t)%nat (d + Z.of_nat t) = dmax - Z.of_nat t) ->
  wp (set_str_loop c v (Z.to_nat n) d (fun r p => slack_if_nul c (rem r p) p)) m (set_post c d dmax n v m).
Proof.
  intros Hn Hrem. apply set_str_loop_wide with (k' := fun r p => wslack_if_nul c 1 (rem r p) p); [intros r p m1; apply slack_if_nul_wide|].
  eapply wp_weaken; [apply wnset_post_narrow|]. apply wset_fill_wp; [lia|exact Hn|]. intros t Ht. rewrite Z.mul_1_r. apply Hrem, Ht.
Qed.

Theorem strnset_s_spec c d dmax value n destbos m : d <> 0 -> usable (rmax_str c) 1 dmax destbos -> 0 <= value <= 255 -> 0 <= n <= dmax ->
  wp (strnset_s c d dmax value n destbos) m (set_post c d dmax n value m).
Proof.
  intros Hd Hu Hv Hn. unfold strnset_s. rewrite chk_dest_plain_ok by assumption. tests.
  apply (set_fill_wp c value d dmax n (fun _ p => dmax - (p - d))); [exact Hn|intros; lia].
Qed.
Theorem strset_s_spec c d dmax value destbos m : d <> 0 -> usable (rmax_str c) 1 dmax destbos -> 0 <= value <= 255 ->
  wp (strset_s c d dmax value destbos) m (set_post c d dmax dmax value m).
Proof.
  intros Hd Hu Hv. unfold strset_s. rewrite chk_dest_plain_ok by assumption. destruct Hu as [H1 _]. tests.
  apply (set_fill_wp c value d dmax dmax (fun r _ => Z.of_nat r)); intros; lia.
Qed.
