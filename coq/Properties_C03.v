(* Properties_C03.v -- C03: string producers never leave dest unterminated. *)
From Coq Require Import ZArith Lia.
From SC Require Import Base Wp Cfg CopySpec ModStr ModExt SpecStr SpecExt PropStr FnProps.
From SC.Gen Require Import Consts.
Local Open Scope Z_scope.

(* link from the wp statements below to executions, whatever the allocation-failure oracle *)
Theorem C03_wp_sound : forall (A : Type) (fail : nat -> bool) (p : prog A) st Q,
  wp p (wm st) Q -> let '(a, st') := run fail p st in Q a (wm st').
Proof. exact (@wp_run). Qed.
Print Assumptions C03_wp_sound.

Theorem C03_strcpy_s : forall (c : cfg) (d dmax s destbos : Z) (m : mem) (L : Z), pre_strcpy_s c d dmax s destbos m L ->
  wp (strcpy_s c d dmax s destbos) m (fun _ m' => terminated 1 m' d dmax).
Proof. intros * H. apply (wpr_post (strcpy_s_spec H)). intros r m' Ho. apply (outcome_C03 Ho); unfold pre_strcpy_s, usable, is_str in H; lia. Qed.
Print Assumptions C03_strcpy_s.
Theorem C03_wcscpy_s : forall (c : cfg) (d dmax s destbos : Z) (m : mem) (L g : Z), pre_wcscpy_s c d dmax s destbos m L g ->
  wp (wcscpy_s c d dmax s destbos) m (fun _ m' => terminated (wchar_w c) m' d dmax).
Proof. intros * H. apply (wpr_post (wcscpy_s_spec H)). intros r m' Ho. apply (outcome_C03 Ho); unfold pre_wcscpy_s, wf_cfg, usable, is_str in H; lia. Qed.
Print Assumptions C03_wcscpy_s.
Theorem C03_strncpy_s : forall (c : cfg) (d dmax s slen destbos srcbos : Z) (m : mem) (t : Z), pre_strncpy_s c d dmax s slen destbos srcbos m t ->
  wp (strncpy_s c d dmax s slen destbos srcbos) m (fun _ m' => terminated 1 m' d dmax).
Proof. intros * H. apply (wpr_post (strncpy_s_spec H)). intros r m' Ho. apply (outcome_C03 Ho); unfold pre_strncpy_s, usable, src_ends in H; lia. Qed.
Print Assumptions C03_strncpy_s.
Theorem C03_strcat_s : forall (c : cfg) (d dmax s destbos : Z) (m : mem) (P L : Z), pre_strcat_s c d dmax s destbos m P L ->
  wp (strcat_s c d dmax s destbos) m (fun _ m' => terminated 1 m' d dmax).
Proof. intros * H. apply (wpr_post (strcat_s_spec H)). intros r m' Ho. apply (outcome_C03 Ho); unfold pre_strcat_s, usable, is_str in H; lia. Qed.
Print Assumptions C03_strcat_s.
Theorem C03_strncat_s : forall (c : cfg) (d dmax s slen destbos srcbos : Z) (m : mem) (P t : Z), pre_strncat_s c d dmax s slen destbos srcbos m P t ->
  wp (strncat_s c d dmax s slen destbos srcbos) m (fun _ m' => terminated 1 m' d dmax).
Proof. intros * H. apply (wpr_post (strncat_s_spec H)). intros r m' Ho. apply (outcome_C03 Ho); unfold pre_strncat_s, usable, is_str, src_ends in H; lia. Qed.
Print Assumptions C03_strncat_s.

(* strnterminate_s on a valid dest of unknown object size: terminated within dmax, at the first NUL or at dmax-1; returns the length kept; nothing else changes *)
Theorem C03_strnterminate_s : forall c d dmax m, d <> 0 -> 1 <= dmax <= rmax_str c -> wp (strnterminate_s c d dmax BOS_UNKNOWN) m (fun r m' => 0 <= r < dmax /\ (forall i, 0 <= i < r -> m (d + i) <> 0) /\ (r < dmax - 1 -> m (d + r) = 0) /\ m' (d + r) = 0 /\ (forall a, a <> d + r -> m' a = m a)).
Proof. intros. apply strnterminate_s_spec; auto using usable_unknown. Qed.
Print Assumptions C03_strnterminate_s.

Theorem C03_cfg_repo_wf : wf_cfg cfg_repo.
Proof. exact wf_cfg_repo. Qed.
Print Assumptions C03_cfg_repo_wf.
