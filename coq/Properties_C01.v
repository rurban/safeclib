(* Properties_C01.v -- C01: no write outside the declared destination.
   A hypothesis that a proof discards ([_]) is one the statement does not need. *)
From Coq Require Import ZArith Lia.
From SC Require Import Base Cfg CombProofs ModStr ModMem ModExt ModExt2 ProofsStr ProofsMem ProofsExt PropDefs.
From SC.Gen Require Import Consts.
Local Open Scope Z_scope.

Definition bos_ok (bytes destbos : Z) : Prop := destbos = BOS_UNKNOWN \/ bytes <= destbos.

Theorem C01_strcpy_s : forall c d dmax s destbos, 0 <= dmax -> bos_ok dmax destbos ->
  C01_holds (ext d dmax) (strcpy_s c d dmax s destbos).
Proof. intros * H _. apply C01_from_writes, strcpy_s_writes, H. Qed.
Print Assumptions C01_strcpy_s.

Theorem C01_strcat_s : forall c d dmax s destbos, 0 <= dmax -> bos_ok dmax destbos ->
  C01_holds (ext d dmax) (strcat_s c d dmax s destbos).
Proof. intros * H _. apply C01_from_writes. unfold strcat_s. walk. Qed.
Print Assumptions C01_strcat_s.

(* the n-variants report "slen exceeds the source object" through handle_str_bos_overflow(dest, destbos), which clears
   up to the known size of dest, beyond dmax when that is larger: hence the hypothesis on srcbos *)
Theorem C01_strncpy_s : forall c d dmax s slen destbos srcbos, 0 <= dmax -> bos_ok dmax destbos -> bos_ok slen srcbos ->
  C01_holds (ext d dmax) (strncpy_s c d dmax s slen destbos srcbos).
Proof. intros * H _ Hs. unfold bos_ok in Hs. apply C01_from_writes. unfold strncpy_s. walk. Qed.
Print Assumptions C01_strncpy_s.

Theorem C01_strncat_s : forall c d dmax s slen destbos srcbos, 0 <= dmax -> bos_ok dmax destbos -> bos_ok slen srcbos ->
  C01_holds (ext d dmax) (strncat_s c d dmax s slen destbos srcbos).
Proof. intros * H _ Hs. unfold bos_ok in Hs. apply C01_from_writes. unfold strncat_s. walk. Qed.
Print Assumptions C01_strncat_s.

Theorem C01_wcscpy_s : forall c d dmax s destbos, wf_cfg c -> 0 <= dmax -> bos_ok (dmax * wchar_w c) destbos ->
  C01_holds (ext d (dmax * wchar_w c)) (wcscpy_s c d dmax s destbos).
Proof. intros * Hc H _. pose proof (wchar_w_pos c Hc). apply C01_from_writes. unfold wcscpy_s. walk. Qed.
Print Assumptions C01_wcscpy_s.

Theorem C01_strnlen_s : forall c str smax bos, C01_holds nowhere (strnlen_s c str smax bos).
Proof. intros. apply C01_from_writes. unfold strnlen_s. walk. Qed.
Print Assumptions C01_strnlen_s.

(* memcpy_s / memmove_s never replace dmax by a known object size *)
Theorem C01_memcpy_s : forall c d dmax s slen destbos srcbos, 0 <= dmax -> 0 <= slen -> bos_ok dmax destbos ->
  C01_holds (ext d dmax) (memcpy_s c d dmax s slen destbos srcbos).
Proof. intros * _ _ _. apply C01_from_writes, (mem_copy_gen_writes c 1 _ false). Qed.
Print Assumptions C01_memcpy_s.
Theorem C01_memmove_s : forall c d dmax s slen destbos srcbos, 0 <= dmax -> 0 <= slen -> bos_ok dmax destbos ->
  C01_holds (ext d dmax) (memmove_s c d dmax s slen destbos srcbos).
Proof. intros * _ _ _. apply C01_from_writes, (mem_copy_gen_writes c 1 _ false). Qed.
Print Assumptions C01_memmove_s.

(* functions that bound the operation by a known object size ("dmax = destbos"): the statements are about the extent
   really used (eff_dmax), which exceeds dest[0..dmax) when destbos > dmax (known finding bos-replaces-dmax) *)
Theorem C01_memcpy16_s_extent : forall c d dmax s slen destbos srcbos, 0 <= dmax -> 0 <= slen -> bos_ok dmax destbos ->
  C01_holds (ext d (eff_dmax true dmax destbos)) (memcpy16_s c d dmax s slen destbos srcbos).
Proof. intros * _ _ _. apply C01_from_writes, mem_copy_gen_writes. Qed.
Print Assumptions C01_memcpy16_s_extent.
Theorem C01_memmove16_s_extent : forall c d dmax s slen destbos srcbos, 0 <= dmax -> 0 <= slen -> bos_ok dmax destbos ->
  C01_holds (ext d (eff_dmax true dmax destbos)) (memmove16_s c d dmax s slen destbos srcbos).
Proof. intros * _ _ _. apply C01_from_writes, mem_copy_gen_writes. Qed.
Print Assumptions C01_memmove16_s_extent.
Theorem C01_memcpy32_s_extent : forall c d dmax s slen destbos srcbos, 0 <= dmax -> 0 <= slen -> bos_ok dmax destbos ->
  C01_holds (ext d (eff_dmax true dmax destbos)) (memcpy32_s c d dmax s slen destbos srcbos).
Proof. intros * _ _ _. apply C01_from_writes, mem_copy_gen_writes. Qed.
Print Assumptions C01_memcpy32_s_extent.
Theorem C01_memmove32_s_extent : forall c d dmax s slen destbos srcbos, 0 <= dmax -> 0 <= slen -> bos_ok dmax destbos ->
  C01_holds (ext d (eff_dmax true dmax destbos)) (memmove32_s c d dmax s slen destbos srcbos).
Proof. intros * _ _ _. apply C01_from_writes, mem_copy_gen_writes. Qed.
Print Assumptions C01_memmove32_s_extent.
Theorem C01_memset_s_extent : forall c d dmax v n destbos, 0 <= dmax -> 0 <= n -> bos_ok dmax destbos ->
  C01_holds (ext d (eff_dmax true dmax destbos)) (memset_s c d dmax v n destbos).
Proof. intros * _ _ _. apply C01_from_writes. unfold memset_s, eff_dmax. walk. Qed.
Print Assumptions C01_memset_s_extent.
Theorem C01_memset16_s_extent : forall c d dmax v n destbos, 0 <= dmax -> 0 <= n -> bos_ok dmax destbos ->
  C01_holds (ext d (eff_dmax true dmax destbos)) (memset16_s c d dmax v n destbos).
Proof. intros * _ _ _. apply C01_from_writes, memsetw_s_writes. lia. Qed.
Print Assumptions C01_memset16_s_extent.
Theorem C01_memset32_s_extent : forall c d dmax v n destbos, 0 <= dmax -> 0 <= n -> bos_ok dmax destbos ->
  C01_holds (ext d (eff_dmax true dmax destbos)) (memset32_s c d dmax v n destbos).
Proof. intros * _ _ _. apply C01_from_writes, memsetw_s_writes. lia. Qed.
Print Assumptions C01_memset32_s_extent.

(* outside the known-finding region (object size unknown, or equal to dmax) the extent is dest[0..dmax) *)
Theorem C01_bos_replaces_dmax_except : forall dmax destbos,
  (destbos = BOS_UNKNOWN \/ destbos = dmax) -> eff_dmax true dmax destbos = dmax.
Proof. intros dmax destbos [->| ->]; unfold eff_dmax; cbn; [reflexivity|]. destruct (dmax =? BOS_UNKNOWN); reflexivity. Qed.
Print Assumptions C01_bos_replaces_dmax_except.
(* inside it the declared extent is exceeded: memset_s(d, 4, 'A', 8, destbos = 8) writes d+4..d+7 *)
Theorem C01_memset_s_refuted : exists c d dmax v n destbos, 0 <= dmax /\ bos_ok dmax destbos /\
  ~ C01_holds (ext d dmax) (memset_s c d dmax v n destbos).
Proof.
  exists cfg_default, 1000, 4, 65, 8, 8. split; [lia|]. split; [right; lia|].
  intros H. destruct (H nofail (fun _ => 0)) as [F _]. specialize (F 1005).
  assert (~ ext 1000 4 1005) as N by (unfold ext; lia). specialize (F N). vm_compute in F. discriminate.
Qed.
Print Assumptions C01_memset_s_refuted.

Theorem C01_memzero_s : forall c d len destbos, 0 <= len -> bos_ok (len * 1) destbos ->
  C01_holds (ext d (len * 1)) (memzero_s c d len destbos).
Proof. intros * _ _. apply C01_from_writes, memzerow_s_writes. Qed.
Print Assumptions C01_memzero_s.
Theorem C01_memzero16_s : forall c d len destbos, 0 <= len -> bos_ok (len * 2) destbos ->
  C01_holds (ext d (len * 2)) (memzero16_s c d len destbos).
Proof. intros * _ _. apply C01_from_writes, memzerow_s_writes. Qed.
Print Assumptions C01_memzero16_s.
Theorem C01_memzero32_s : forall c d len destbos, 0 <= len -> bos_ok (len * 4) destbos ->
  C01_holds (ext d (len * 4)) (memzero32_s c d len destbos).
Proof. intros * _ _. apply C01_from_writes, memzerow_s_writes. Qed.
Print Assumptions C01_memzero32_s.

Theorem C01_strtolowercase_s : forall c d dmax destbos, 0 <= dmax -> C01_holds (ext d dmax) (strtolowercase_s c d dmax destbos).
Proof. intros * _. apply C01_from_writes. unfold strtolowercase_s. walk. Qed.
Print Assumptions C01_strtolowercase_s.
Theorem C01_strtouppercase_s : forall c d dmax destbos, 0 <= dmax -> C01_holds (ext d dmax) (strtouppercase_s c d dmax destbos).
Proof. intros * _. apply C01_from_writes. unfold strtouppercase_s. walk. Qed.
Print Assumptions C01_strtouppercase_s.
Theorem C01_strset_s : forall c d dmax value destbos, 0 <= dmax -> C01_holds (ext d dmax) (strset_s c d dmax value destbos).
Proof. intros * _. apply C01_from_writes. unfold strset_s. walk. Qed.
Print Assumptions C01_strset_s.
Theorem C01_strnset_s : forall c d dmax value n destbos, 0 <= dmax -> 0 <= n -> C01_holds (ext d dmax) (strnset_s c d dmax value n destbos).
Proof. intros * _ _. apply C01_from_writes. unfold strnset_s. walk. Qed.
Print Assumptions C01_strnset_s.
Theorem C01_wcsset_s : forall c d dmax value destbos, 0 < wchar_w c -> 0 <= dmax ->
  (destbos = BOS_UNKNOWN \/ dmax * wchar_w c <= destbos) -> C01_holds (ext d (dmax * wchar_w c)) (wcsset_s c d dmax value destbos).
Proof. intros * Hw H _. apply C01_from_writes. unfold wcsset_s. walk. Qed.
Print Assumptions C01_wcsset_s.
Theorem C01_wcsnset_s : forall c d dmax value n destbos, 0 < wchar_w c -> 0 <= dmax -> 0 <= n ->
  (destbos = BOS_UNKNOWN \/ dmax * wchar_w c <= destbos) -> C01_holds (ext d (dmax * wchar_w c)) (wcsnset_s c d dmax value n destbos).
Proof. intros * Hw H _ _. apply C01_from_writes. unfold wcsnset_s. walk. Qed.
Print Assumptions C01_wcsnset_s.
Theorem C01_strnterminate_s : forall c d dmax destbos, 0 <= dmax -> C01_holds (ext d dmax) (strnterminate_s c d dmax destbos).
Proof. intros * H. apply C01_from_writes. unfold strnterminate_s. walk. Qed.
Print Assumptions C01_strnterminate_s.
(* bos_pos, like bos_ok above, is a hypothesis the proofs discard: on the "dmax exceeds the object" exits the clear is
   bounded by destbos < dmax, and a clear of length 0 touches one element at most *)
Definition bos_pos (destbos : Z) : Prop := destbos = BOS_UNKNOWN \/ 1 <= destbos.
Theorem C01_strcpyfld_s : forall c d dmax s slen destbos, 0 <= dmax -> 0 <= slen -> bos_pos destbos ->
  C01_holds (ext d dmax) (strcpyfld_s c d dmax s slen destbos).
Proof. intros * H _ _. apply C01_from_writes. unfold strcpyfld_s. walk. Qed.
Print Assumptions C01_strcpyfld_s.
Theorem C01_strcpyfldin_s : forall c d dmax s slen destbos, 0 <= dmax -> bos_pos destbos ->
  C01_holds (ext d dmax) (strcpyfldin_s c d dmax s slen destbos).
Proof. intros * H _. apply C01_from_writes. unfold strcpyfldin_s. walk. Qed.
Print Assumptions C01_strcpyfldin_s.
Theorem C01_strcpyfldout_s : forall c d dmax s slen destbos, 0 <= dmax -> bos_pos destbos ->
  C01_holds (ext d dmax) (strcpyfldout_s c d dmax s slen destbos).
Proof. intros * H _. apply C01_from_writes. unfold strcpyfldout_s. walk. Qed.
Print Assumptions C01_strcpyfldout_s.
Theorem C01_memccpy_s : forall c d dmax s ch n destbos srcbos, 0 <= dmax -> C01_holds (ext d dmax) (memccpy_s c d dmax s ch n destbos srcbos).
Proof. intros * H. apply C01_from_writes. unfold memccpy_s. walk. Qed.
Print Assumptions C01_memccpy_s.
Theorem C01_wmemcpy_s : forall c d dlen s count destbos srcbos, wf_cfg c -> 0 <= dlen -> 0 <= count ->
  C01_holds (ext d (dlen * wchar_w c)) (wmemcpy_s c d dlen s count destbos srcbos).
Proof. intros * _ _ _. apply C01_from_writes, wmem_copy_writes. Qed.
Print Assumptions C01_wmemcpy_s.
Theorem C01_wmemmove_s : forall c d dlen s count destbos srcbos, wf_cfg c -> 0 <= dlen -> 0 <= count ->
  C01_holds (ext d (dlen * wchar_w c)) (wmemmove_s c d dlen s count destbos srcbos).
Proof. intros * _ _ _. apply C01_from_writes, wmem_copy_writes. Qed.
Print Assumptions C01_wmemmove_s.
(* the pointer-returning copies store into dest[0..dmax) and the 4 bytes of *errp, nothing else *)
Theorem C01_stpcpy_s : forall c d dmax s errp destbos srcbos, 0 <= dmax -> bos_pos destbos ->
  C01_holds (stpP d dmax errp) (stpcpy_s c d dmax s errp destbos srcbos).
Proof. intros * H _. apply C01_from_writes, stpcpy_s_writes, H. Qed.
Print Assumptions C01_stpcpy_s.
Theorem C01_stpncpy_s : forall c d dmax s slen errp destbos srcbos, 0 <= dmax -> bos_pos destbos -> bos_ok slen srcbos ->
  C01_holds (stpP d dmax errp) (stpncpy_s c d dmax s slen errp destbos srcbos).
Proof. intros * H _ Hs. unfold bos_ok in Hs. apply C01_from_writes. unfold stpncpy_s. walk. Qed.
Print Assumptions C01_stpncpy_s.

(* the configuration of the working tree satisfies the side conditions (regenerated every run) *)
Theorem C01_cfg_repo_wf : wf_cfg cfg_repo.
Proof. exact wf_cfg_repo. Qed.
Print Assumptions C01_cfg_repo_wf.

(* the model computes: a concrete call returns EOK *)
Example C01_example : let m := fun a => if a =? 2003 then 0 else 97 in
  fst (fst (exec (strcpy_s cfg_default 1000 8 2000 BOS_UNKNOWN) m)) = EOK.
Proof. vm_compute. reflexivity. Qed.
