(* SpecExt.v -- functional specifications (weakest preconditions) of models in ModExt.v:
   strnterminate_s (C03), strtolowercase_s / strtouppercase_s (C06, operands otherwise untouched), stpcpy_s (C06). *)
From Coq Require Import ZArith Lia Bool.
From SC Require Import Base Wp Cfg Comb CombProofs CopySpec PropStr SpecStr FnProps ModExt.
Local Open Scope Z_scope.

Lemma chk_dest_plain_ok c d dmax destbos (k : unit -> prog Z) :
  d <> 0 -> usable (rmax_str c) 1 dmax destbos -> chk_dest_plain c d dmax destbos k = k tt.
Proof. intros Hd (H1 & [[-> Hr]|[Hn Hr]]); unfold chk_dest_plain; tests; reflexivity. Qed.

Lemma nterm_loop_wp d0 m (Q : Z -> mem -> Prop) : forall n p cnt, cnt = p - d0 ->
  (forall x, d0 <= x < p -> m x <> 0) ->
  (forall e, p <= e <= p + Z.of_nat n -> (forall x, d0 <= x < e -> m x <> 0) -> (e < p + Z.of_nat n -> m e = 0) ->
     Q (e - d0) (store m 1 e 0)) ->
  wp (nterm_loop n p cnt) m Q.
Proof.
  induction n as [|n IH]; intros p cnt -> Hnz HQ; cbn [nterm_loop wp].
  - apply (HQ p); [lia|exact Hnz|lia].
  - rewrite load1. destruct (Z.eqb_spec (m p) 0) as [E|E]; cbn [wp].
    + apply (HQ p); [lia|exact Hnz|auto].
    + apply IH; [lia| |].
      * intros x Hx. destruct (Z.eq_dec x p) as [->|]; [exact E|apply Hnz; lia].
      * intros e He Hnz' Hz. apply HQ; [lia|exact Hnz'|intros Hl; apply Hz; lia].
Qed.
Theorem strnterminate_s_spec c d dmax destbos m : d <> 0 -> usable (rmax_str c) 1 dmax destbos ->
  wp (strnterminate_s c d dmax destbos) m (fun r m' => 0 <= r < dmax /\
     (forall i, 0 <= i < r -> m (d + i) <> 0) /\ (r < dmax - 1 -> m (d + r) = 0) /\
     m' (d + r) = 0 /\ (forall a, a <> d + r -> m' a = m a)).
Proof.
  intros Hd Hu.
  assert (E : strnterminate_s c d dmax destbos = nterm_loop (Z.to_nat (dmax - 1)) d 0)
    by (destruct Hu as (H1 & [[-> Hr]|[Hn Hr]]); unfold strnterminate_s; tests; reflexivity).
  rewrite E. destruct Hu as [H1 _]. apply (nterm_loop_wp d); [lia|intros; lia|]. intros e He Hnz Hz. replace (d + (e - d)) with e by lia.
  split; [lia|]. split; [intros i Hi; apply Hnz; lia|]. split; [intros Hr; apply Hz; lia|].
  split; [apply store1_in|intros a Ha; apply store_out; lia].
Qed.

Definition conv (lo hi delta x : Z) : Z := if (lo <=? x) && (x <=? hi) then (x + delta) mod 256 else x.
Lemma case_loop_wp lo hi delta (Q : Z -> mem -> Prop) : forall n p m,
  (forall e m', p <= e <= p + Z.of_nat n -> (forall x, p <= x < e -> m x <> 0) -> (e < p + Z.of_nat n -> m e = 0) ->
     (forall x, p <= x < e -> m' x = conv lo hi delta (m x)) -> (forall x, ~ (p <= x < e) -> m' x = m x) -> Q EOK m') ->
  wp (case_loop lo hi delta n p) m Q.
Proof.
  induction n as [|n IH]; intros p m HQ; cbn [case_loop wp].
  - apply (HQ p); intros; try lia; reflexivity.
  - rewrite load1. destruct (Z.eqb_spec (m p) 0) as [E|E].
    + apply (HQ p); intros; try lia; auto.
    + (* converted or not, the character at p becomes conv (m p) and nothing else changes *)
      assert (Step : forall m1, m1 p = conv lo hi delta (m p) -> (forall x, x <> p -> m1 x = m x) ->
                wp (case_loop lo hi delta n (p + 1)) m1 Q).
      { intros m1 Hp Hm1. apply IH. intros e m' He Hnz Hz Hin Hout. apply (HQ e m'); [lia| | | |].
        - intros x Hx. destruct (Z.eq_dec x p) as [->|]; [exact E|]. rewrite <- Hm1 by lia. apply Hnz. lia.
        - intros Hl. rewrite <- Hm1 by lia. apply Hz. lia.
        - intros x Hx. destruct (Z.eq_dec x p) as [->|]; [rewrite Hout by lia; exact Hp|]. rewrite Hin, Hm1 by lia. reflexivity.
        - intros x Hx. rewrite Hout by lia. apply Hm1. lia. }
      unfold conv in Step. destruct ((lo <=? m p) && (m p <=? hi)); cbn [wp]; apply Step;
        [apply store1_in|intros; apply store_out; lia|reflexivity|reflexivity].
Qed.
Lemma case_conv_spec c lo hi delta d dmax destbos m : d <> 0 -> usable (rmax_str c) 1 dmax destbos ->
  wp (chk_dest_plain c d dmax destbos (fun _ => case_loop lo hi delta (Z.to_nat dmax) d)) m (fun r m' =>
     r = EOK /\ exists t, 0 <= t <= dmax /\
     (forall i, 0 <= i < t -> m (d + i) <> 0) /\ (t < dmax -> m (d + t) = 0) /\
     forall a, m' a = if in_range d t a then conv lo hi delta (m a) else m a).
Proof.
  intros Hd Hu. rewrite chk_dest_plain_ok by assumption. destruct Hu as [H1 _].
  apply case_loop_wp. intros e m' He Hnz Hz Hin Hout. split; [reflexivity|]. exists (e - d).
  replace (d + (e - d)) with e by lia. split; [lia|]. split; [intros i Hi; apply Hnz; lia|]. split; [intros Hl; apply Hz; lia|].
  intros a. destruct (in_rangeP d (e - d) a); [apply Hin|apply Hout]; lia.
Qed.

(* stpcpy_s runs the copy loop of strcpy_s; an exit stores the code to *errp and returns the address where the loop
   stopped (0 on failure) *)
Definition stp_exit (errp r e : Z) : prog Z := Store 4 errp r (Ret (if r =? EOK then e else 0)).
Lemma stp_loop_copy c fwd od odmax bumper errp nt (Q : Z -> mem -> Prop) n : forall d s sl m,
  wp (copy_loop_k c 1 fwd od odmax bumper false (stp_exit errp) n d s sl) m Q ->
  wp (stp_loop c fwd od odmax bumper errp BOS_UNKNOWN false nt n d s sl) m Q.
Proof.
  induction n as [|n IH]; intros d s sl m; cbn [copy_loop_k stp_loop]; [exact (fun H => H)|].
  destruct (if fwd then _ else _); [exact (fun H => H)|]. cbn [andb wp]. destruct (_ =? 0); [|apply IH].
  unfold stp_eok, zero_slack. destruct (null_slack c); exact (fun H => H).
Qed.

(* for any Q: the final memory is the outcome's with the code stored at errp, which a postcondition could only say by an
   equation between memories *)
Theorem stpcpy_s_spec c d dmax s errp destbos m L (Q : Z -> mem -> Prop) : pre_strcpy_s c d dmax s destbos m L -> errp <> 0 ->
  (forall r m1, outcome c 1 m d dmax s 0 dmax (Z.abs (s - d)) L r m1 -> Q (if r =? EOK then d + L else 0) (store m1 4 errp r)) ->
  wp (stpcpy_s c d dmax s errp destbos BOS_UNKNOWN) m Q.
Proof.
  intros (Hm & Hd & Hs & Hne & Hu & HL) He HQ. pose proof Hu as [H1 _].
  assert (G : forall fwd bumper, sep 1 fwd bumper d s (Z.abs (s - d)) ->
    wp (stp_loop c fwd d dmax bumper errp BOS_UNKNOWN false false (Z.to_nat dmax) d s 0) m Q).
  { intros fwd bumper Hsep. apply stp_loop_copy, (wpr_wp (fun _ => True)).
    apply (copy_loop_k_spec c 1 fwd d dmax bumper false ltac:(lia) H1 _ _ _ _ dmax 0 d s 0 (Z.abs (s - d)) L);
      auto using src_ends_upto, is_str_ends; try lia.
    intros r e m1 Ho Hp. specialize (HQ r m1 Ho). unfold stp_exit. cbn [wpr].
      destruct (Z.eqb_spec r EOK) as [Hr|]; [rewrite (Hp Hr), Z.mul_1_r|]; exact HQ. }
  unfold stpcpy_s. destruct Hu as (_ & [[-> Hr]|[Hn Hr]]); tests; destruct (Z.ltb_spec d s); apply G; unfold sep; lia.
Qed.
