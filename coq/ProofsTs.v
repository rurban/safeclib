(* ProofsTs.v -- C19(a): the loops of the timingsafe comparators (ModTs.v), for every n and all contents.  The result of
   tsmemcmp_loop is proved in Properties_C19.v; its reference first_diff_sign is shared with memcmp_s (ProofsQuery.v). *)
From Coq Require Import ZArith Lia.
From SC Require Import Base Wp ModTs.
Local Open Scope Z_scope.

Lemma bcmp_loop_spec n : forall p1 p2 ret m, wf_mem m -> 0 <= ret ->
  wp (bcmp_loop n p1 p2 ret) m (fun r m' =>
     (r = 0 \/ r = 1) /\ (r = 0 <-> (ret = 0 /\ forall i, 0 <= i < Z.of_nat n -> m (p1 + i) = m (p2 + i)))).
Proof.
  induction n as [|n IH]; intros p1 p2 ret m Hm Hr; cbn [bcmp_loop wp].
  - destruct (Z.eqb_spec ret 0); cbn [Z.of_nat]; intuition lia.
  - rewrite !load1.
    assert (Hl : 0 <= Z.lor ret (Z.lxor (m p1) (m p2))).
    { apply Z.lor_nonneg. split; [exact Hr|]. apply Z.lxor_nonneg. pose proof (Hm p1). pose proof (Hm p2). lia. }
    eapply wp_weaken; [|apply (IH _ _ _ m Hm Hl)].
    intros r m' [Hr01 Hiff]. split; [exact Hr01|].
    rewrite Hiff, Z.lor_eq_0_iff, Z.lxor_eq_0_iff, Nat2Z.inj_succ.
    (* offset 0 is the pair just read; offset 1 + i from p is offset i from p + 1 *)
    split.
    + intros [[H1 H2] H3]. split; [exact H1|]. intros i Hi. destruct (Z.eq_dec i 0) as [->|Hi0].
      * rewrite !Z.add_0_r. exact H2.
      * replace i with (1 + (i - 1)) by lia. rewrite !Z.add_assoc. apply H3. lia.
    + intros [H1 H2]. split; [split; [exact H1|]|].
      * rewrite <- (Z.add_0_r p1), <- (Z.add_0_r p2). apply H2. lia.
      * intros i Hi. rewrite <- !Z.add_assoc. apply H2. lia.
Qed.

(* a difference of two bytes lies in (-256, 256), so its arithmetic shift by 8 is its sign bit *)
Lemma shiftr_byte_diff a b : 0 <= a < 256 -> 0 <= b < 256 -> Z.shiftr (a - b) 8 = if a <? b then -1 else 0.
Proof.
  intros Ha Hb. rewrite Z.shiftr_div_pow2 by lia. change (2 ^ 8) with 256. destruct (Z.ltb_spec a b).
  - symmetry. apply Z.div_unique with (r := a - b + 256); lia.
  - apply Z.div_small. lia.
Qed.

(* sign of the first differing byte pair, compared as unsigned bytes; 0 if the regions are equal *)
Fixpoint first_diff_sign (n : nat) (m : mem) (p1 p2 : Z) : Z :=
  match n with
  | O => 0
  | S n' => if m p1 <? m p2 then -1 else if m p2 <? m p1 then 1 else first_diff_sign n' m (p1 + 1) (p2 + 1)
  end.

(* done = -1: a difference has been seen *)
Lemma tsmemcmp_loop_decided n : forall p1 p2 res m, wp (tsmemcmp_loop n p1 p2 res (-1)) m (fun r m' => r = res).
Proof.
  induction n as [|n IH]; intros p1 p2 res m; cbn [tsmemcmp_loop wp]; [reflexivity|].
  change (Z.lnot (-1)) with 0. rewrite Z.land_0_r, Z.lor_0_r, Z.lor_m1_l. apply IH.
Qed.
