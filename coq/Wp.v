(* Wp.v -- weakest precondition [wp] over [prog] with its soundness w.r.t. [run], byte-level facts about loads and stores
   of width w, the memory-dependent read footprint [reads_ok], [wpr] (both in one recursion), the frame rule [wp_frame]. *)
From Coq Require Import List ZArith Lia.
From SC Require Import Base.
Local Open Scope Z_scope.

Fixpoint wp {A} (p : prog A) (m : mem) (Q : A -> mem -> Prop) : Prop :=
  match p with
  | Ret a => Q a m
  | Load w a k => wp (k (load m w a)) m Q
  | Store w a v k => wp k (store m w a v) Q
  | Fill a n v k => wp k (fill m a n v) Q
  | Move d s n k => wp k (move m d s n) Q
  | Handler _ _ k | Free _ k | Static _ k => wp k m Q
  | Alloc _ k => forall r, wp (k r) m Q
  end.

Lemma wp_bind {A B} (p : prog A) (f : A -> prog B) : forall m Q,
  wp p m (fun a m' => wp (f a) m' Q) -> wp (bind p f) m Q.
Proof. induction p; cbn; auto. Qed.
Lemma wp_weaken {A} (p : prog A) : forall m (Q Q' : A -> mem -> Prop),
  (forall a m', Q a m' -> Q' a m') -> wp p m Q -> wp p m Q'.
Proof. induction p; cbn; eauto. Qed.

Lemma wp_run {A} (fail : nat -> bool) (p : prog A) : forall st Q,
  wp p (wm st) Q -> let '(a, st') := run fail p st in Q a (wm st').
Proof.
  induction p; cbn; intros st Q Hw; try destruct (fail (wn st)); auto;
    (apply (IHp (mkW _ _ _ _)) || apply (H _ (mkW (wm st) _ _ _))); apply Hw.
Qed.
Lemma wp_exec {A} (p : prog A) m Q : wp p m Q -> let '(a, m', _) := exec p m in Q a m'.
Proof.
  intros H. unfold exec. pose proof (wp_run nofail p (w0 m) Q H) as F.
  destruct (run nofail p (w0 m)) as [a st]. exact F.
Qed.

Definition wf_mem (m : mem) : Prop := forall a, 0 <= m a < 256.
Lemma wf_byte m p : wf_mem m -> m p mod 256 = m p.
Proof. intros H. apply Z.mod_small, H. Qed.

Lemma load_n_ext m1 m2 n : forall p, (forall x, p <= x < p + Z.of_nat n -> m1 x = m2 x) ->
  load_n m1 n p = load_n m2 n p.
Proof.
  induction n as [|n IH]; intros p H; cbn [load_n]; [reflexivity|].
  rewrite (H p), (IH (p + 1)); [reflexivity| |lia]. intros x Hx. apply H. lia.
Qed.
Lemma load_ext m1 m2 w p : (forall x, p <= x < p + w -> m1 x = m2 x) -> load m1 w p = load m2 w p.
Proof. intros H. apply load_n_ext. intros x Hx. apply H. lia. Qed.
Lemma load_n_range m n : wf_mem m -> forall p, 0 <= load_n m n p < 256 ^ Z.of_nat n.
Proof.
  intros Hm. induction n as [|n IH]; intros p; cbn [load_n].
  - cbn. lia.
  - rewrite Nat2Z.inj_succ, Z.pow_succ_r by lia. specialize (IH (p + 1)). specialize (Hm p). nia.
Qed.
Lemma load_range m w p : wf_mem m -> 0 <= w -> 0 <= load m w p < 256 ^ w.
Proof. intros Hm Hw. unfold load. pose proof (load_n_range m (Z.to_nat w) Hm p) as H. rewrite Z2Nat.id in H; auto. Qed.
Lemma load_n_zero m n : forall p, (forall x, p <= x < p + Z.of_nat n -> m x = 0) -> load_n m n p = 0.
Proof.
  induction n as [|n IH]; intros p H; cbn [load_n]; [reflexivity|].
  rewrite (H p), IH; [reflexivity| |lia]. intros x Hx. apply H. lia.
Qed.
Lemma load_zero m w p : (forall x, p <= x < p + w -> m x = 0) -> load m w p = 0.
Proof. intros H. apply load_n_zero. intros x Hx. apply H. lia. Qed.

Lemma load_n_zero_inv m n : wf_mem m -> forall p, load_n m n p = 0 -> forall x, p <= x < p + Z.of_nat n -> m x = 0.
Proof.
  intros Hm. induction n as [|n IH]; intros p H x Hx; cbn [load_n] in H; [lia|].
  pose proof (load_n_range m n Hm (p + 1)). pose proof (Hm p).
  destruct (Z.eq_dec x p) as [->|Ne]; [|apply (IH (p + 1))]; lia.
Qed.

Lemma load_n_store m w p v : forall k j, 0 <= j -> j + Z.of_nat k = w ->
  load_n (store m w p v) k (p + j) = (v / 2 ^ (8 * j)) mod 256 ^ Z.of_nat k.
Proof.
  induction k as [|k IH]; intros j Hj Hk; cbn [load_n].
  - cbn. now rewrite Z.mod_1_r.
  - rewrite store_in, <- Z.add_assoc, IH by lia.
    replace (p + j - p) with j by lia. replace (8 * (j + 1)) with (8 * j + 8) by lia.
    (* a mod 256 + 256 * (a / 256 mod 256 ^ k) = a mod 256 ^ (k + 1), for a = v / 2 ^ (8 * j) *)
    rewrite Z.pow_add_r, <- Z.div_div, Nat2Z.inj_succ, Z.pow_succ_r, Z.rem_mul_r by lia. reflexivity.
Qed.
Lemma load_store_same m w p v : 0 <= w -> load (store m w p v) w p = v mod 256 ^ w.
Proof.
  intros Hw. pose proof (load_n_store m w p v (Z.to_nat w) 0) as H.
  rewrite Z.add_0_r, Z.mul_0_r, Z.pow_0_r, Z.div_1_r, Z2Nat.id in H by lia. apply H; lia.
Qed.
Lemma store_zero_byte m w d a : d <= a < d + w -> store m w d 0 a = 0.
Proof. intros H. rewrite store_in, Z.div_0_l by lia. reflexivity. Qed.
Lemma load_store_zero m w d : load (store m w d 0) w d = 0.
Proof. apply load_zero. intros x Hx. now apply store_zero_byte. Qed.
Lemma load_store_other m w p v w' q : q + w' <= p \/ p + w <= q -> load (store m w p v) w' q = load m w' q.
Proof. intros H. apply load_ext. intros x Hx. apply store_out. lia. Qed.
Lemma load_fill_other m a n v w q : q + w <= a \/ a + n <= q -> load (fill m a n v) w q = load m w q.
Proof. intros H. apply load_ext. intros x Hx. apply fill_out. lia. Qed.
Lemma load_fill_zero m a n w q : a <= q -> q + w <= a + n -> load (fill m a n 0) w q = 0.
Proof. intros H1 H2. apply load_zero. intros x Hx. rewrite fill_in by lia. reflexivity. Qed.

Lemma wf_store m w p v : wf_mem m -> wf_mem (store m w p v).
Proof. intros Hm a. unfold store. destruct (in_range p w a); [apply Z.mod_pos_bound; lia|apply Hm]. Qed.
Lemma wf_fill m a n v : wf_mem m -> wf_mem (fill m a n v).
Proof. intros Hm x. unfold fill. destruct (in_range a n x); [apply Z.mod_pos_bound; lia|apply Hm]. Qed.
Lemma wf_move m d s n : wf_mem m -> wf_mem (move m d s n).
Proof. intros Hm x. unfold move. destruct (in_range d n x); apply Hm. Qed.

(* memory-dependent read footprint: the scan stops where the data says *)
Fixpoint reads_ok {A} (R : Z -> Prop) (p : prog A) (m : mem) : Prop :=
  match p with
  | Ret _ => True
  | Load w a k => range_in R a w /\ reads_ok R (k (load m w a)) m
  | Store w a v k => reads_ok R k (store m w a v)
  | Fill a n v k => reads_ok R k (fill m a n v)
  | Move d s n k => range_in R s n /\ reads_ok R k (move m d s n)
  | Handler _ _ k | Free _ k | Static _ k => reads_ok R k m
  | Alloc _ k => forall r, reads_ok R (k r) m
  end.

Lemma reads_in_ok {A} (R : Z -> Prop) (p : prog A) : reads_in R p -> forall m, reads_ok R p m.
Proof. induction p; cbn; intuition auto. Qed.
Lemma reads_ok_bind {A B} (R : Z -> Prop) (p : prog A) (f : A -> prog B) : forall m,
  reads_ok R p m -> wp p m (fun a m' => reads_ok R (f a) m') -> reads_ok R (bind p f) m.
Proof. induction p; cbn; intuition auto. Qed.

Lemma reads_ok_run {A} (fail : nat -> bool) (R : Z -> Prop) (p : prog A) : forall st,
  reads_ok R p (wm st) -> Forall (ev_read_ok R) (wtr st) ->
  Forall (ev_read_ok R) (wtr (snd (run fail p st))).
Proof.
  induction p; cbn; intros st Hr Ht; try destruct (fail (wn st)); try destruct Hr; auto;
    (apply (IHp (mkW _ _ _ _)) || apply (H _ (mkW (wm st) _ _ _))); cbn; auto; repeat (constructor; cbn; auto).
Qed.

(* [wpr R p m Q] gives [wp p m Q] and [reads_ok R p m] (wpr_wp, wpr_reads) by a single recursion, so that a loop
   whose result and whose read extent rest on the same invariant is analysed once. *)
Fixpoint wpr {A} (R : Z -> Prop) (p : prog A) (m : mem) (Q : A -> mem -> Prop) : Prop :=
  match p with
  | Ret a => Q a m
  | Load w a k => range_in R a w /\ wpr R (k (load m w a)) m Q
  | Store w a v k => wpr R k (store m w a v) Q
  | Fill a n v k => wpr R k (fill m a n v) Q
  | Move d s n k => range_in R s n /\ wpr R k (move m d s n) Q
  | Handler _ _ k | Free _ k | Static _ k => wpr R k m Q
  | Alloc _ k => forall r, wpr R (k r) m Q
  end.

Lemma wpr_wp {A} R (p : prog A) : forall m Q, wpr R p m Q -> wp p m Q.
Proof. induction p; cbn; intuition auto. Qed.
Lemma wpr_reads {A} R (p : prog A) : forall m Q, wpr R p m Q -> reads_ok R p m.
Proof. induction p; cbn; intuition eauto. Qed.
Lemma wp_wpr {A} (p : prog A) : forall m Q, wp p m Q -> wpr (fun _ => True) p m Q.
Proof. induction p; cbn; unfold range_in; intuition auto. Qed.
Lemma wpr_post {A} R (p : prog A) m (Q Q' : A -> mem -> Prop) :
  wpr R p m Q -> (forall a m', Q a m' -> Q' a m') -> wp p m Q'.
Proof. eauto using wp_weaken, wpr_wp. Qed.
Arguments wpr_reads {A R p m Q}.
Arguments wpr_post {A R p m Q Q'}.
Lemma wpr_bind {A B} R (p : prog A) (f : A -> prog B) : forall m Q,
  wpr R p m (fun a m' => wpr R (f a) m' Q) -> wpr R (bind p f) m Q.
Proof. induction p; cbn; intuition auto. Qed.

Lemma wp_frame {A} P (p : prog A) : writes_in P p -> forall m (Q : A -> mem -> Prop),
  wp p m (fun a m' => (forall x, ~ P x -> m' x = m x) -> Q a m') -> wp p m Q.
Proof.
  induction p; cbn; intros Hw m Q Hp; auto; try destruct Hw as [Hr Hw];
    (* a write: bytes outside P are those before it (store_out ..), so the frame of the rest extends over it *)
    try (apply IHp; [exact Hw|]; revert Hp; apply wp_weaken; intros a m' HQ Hf; apply HQ; intros x Hx; rewrite Hf by exact Hx;
         (apply store_out || apply fill_out || apply move_out); intros Hin; exact (Hx (Hr x Hin))).
Qed.
